(* DumpText.v — C13: the text Dump prints is a well-formed layout of the tree's tokens (so the proved front end reads it
   back): `fst (show t depth) ++ trail = render (items dump_lead t depth trail)`, the tokens of `items` are
   `ttoks show_Z t`, and the separators are white space, empty only in front of a parenthesis. *)
Require Import Base Tables Ops Tree Flat Directives Lexer Parser Print LexProofs ListFacts PrefixProofs PrintProofs SourceProofs DumpStruct.
From Coq Require Import ZifyBool ZifyN.
Open Scope Z_scope.
Open Scope list_scope.

Local Notation wf_tok := (wf_tok is_letter_tab is_number_tab).
Local Notation wf_items := (wf_items is_letter_tab is_number_tab).

Lemma digit_wordc d : is_digit d = true -> wordc d = true /\ d <> 59%N /\ d <> 34%N.
Proof. unfold is_digit, wordc, is_space, is_delim. lia. Qed.

Lemma show_Z_tok z : in_i64 z = true -> wf_tok false (KInt (show_Z z)).
Proof.
  intros Hz. destruct (show_Z_shape z Hz) as (d & more & Hd & _ & Es).
  assert (Hw : Forall (fun c => wordc c = true) (d :: more)) by (eapply Forall_impl; [|exact Hd]; apply digit_wordc).
  assert (Hshape : exists c w, show_Z z = c :: w /\ wordc c = true /\ c <> 59%N /\ c <> 34%N /\ Forall (fun c => wordc c = true) w).
  { rewrite Es. destruct (z <? 0); eexists _, _; (split; [reflexivity|]).
    - repeat split; try reflexivity; try discriminate. exact Hw.
    - inversion Hd; subst. inversion Hw; subst. destruct (digit_wordc d) as (_ & ? & ?); auto. }
  split; [exact Hshape|]. destruct Hshape as (c & w & Es' & W & _). rewrite Es', (classify_word _ _ c w W), <- Es'.
  unfold valid_int. rewrite (parse_show_Z z Hz). reflexivity.
Qed.

(* the elements of a literal list: one space between two of them, nothing after the last *)
Fixpoint sepitems (ts : list tok) : list (tok * str) :=
  match ts with [] => [] | [a] => [(a, [])] | a :: ts' => (a, [32%N]) :: sepitems ts' end.

Lemma render_sepitems ts : render (sepitems ts) = join_sp (map tok_text ts).
Proof.
  induction ts as [|a [|b ts] IH]; [reflexivity|cbn; apply app_nil_r|].
  change (sepitems (a :: b :: ts)) with ((a, [32%N]) :: sepitems (b :: ts)). cbn [render]. rewrite IH. reflexivity.
Qed.

Lemma map_fst_sepitems ts : map fst (sepitems ts) = ts.
Proof. induction ts as [|a [|b ts] IH]; try reflexivity. cbn [sepitems map fst]. f_equal. exact IH. Qed.

Definition vitems (v : value) (trail : str) : list (tok * str) :=
  match v with
  | VInt z => [(KInt (show_Z z), trail)]
  | VBool true => [(KIdent (ss "true"), trail)]
  | VBool false => [(KIdent (ss "false"), trail)]
  | VStr s => [(KStr s, trail)]
  | VIntL l => (KLParen, []) :: sepitems (map (fun z => KInt (show_Z z)) l) ++ [(KRParen, trail)]
  | VStrL l => (KLParen, []) :: sepitems (map KStr l) ++ [(KRParen, trail)]
  | _ => []
  end.

Definition vlex (v : value) : Prop :=
  match v with
  | VInt z => in_i64 z = true
  | VBool _ => True
  | VStr s => ~ In 34%N s
  | VIntL l => Forall (fun z => in_i64 z = true) l
  | VStrL l => Forall (fun s => ~ In 34%N s) l
  | _ => False
  end.

(* names are identifiers the lexer accepts, strings contain no double quote (the lexer has no escapes) *)
Fixpoint lexable (t : tree) : Prop :=
  match t with
  | TConst v => vlex v
  | TVar n _ => wf_tok false (KIdent n)
  | TOp name _ cs =>
    wf_tok false (KIdent name) /\
    (fix all (l : list tree) : Prop := match l with [] => True | a :: l' => lexable a /\ all l' end) cs
  | TIf a b d => lexable a /\ lexable b /\ lexable d
  end.

Lemma lexable_op name fast cs : lexable (TOp name fast cs) <-> wf_tok false (KIdent name) /\ Forall lexable cs.
Proof. cbn [lexable]. rewrite (all_Forall lexable). tauto. Qed.

Ltac word_tok := split; [eexists _, _; split; [reflexivity|]; repeat split; try reflexivity; try discriminate; repeat constructor|vm_compute; reflexivity].
Lemma wf_true : wf_tok false (KIdent (ss "true")). Proof. word_tok. Qed.
Lemma wf_false : wf_tok false (KIdent (ss "false")). Proof. word_tok. Qed.
Lemma wf_if : wf_tok false (KIdent (ss keyword_if)). Proof. word_tok. Qed.

Definition rparen_first (r : list (tok * str)) : Prop := exists tr r', r = (KRParen, tr) :: r'.
Lemma rparen_first_stops r : rparen_first r -> stops (render r).
Proof. intros (tr & r' & ->). reflexivity. Qed.

Lemma wf_open rest : wf_items false rest -> wf_items false ((KLParen, []) :: rest).
Proof. intros H. cbn [LexProofs.wf_items LexProofs.wf_tok]. repeat split; [constructor|discriminate|discriminate|exact H]. Qed.
Lemma wf_close trail rest : all_space trail -> wf_items false rest -> wf_items false ((KRParen, trail) :: rest).
Proof. intros Ht H. cbn [LexProofs.wf_items LexProofs.wf_tok]. repeat split; [exact Ht|discriminate|discriminate|exact H]. Qed.
Lemma wf_cons t sep rest : wf_tok false t -> is_comment t = false -> all_space sep -> (sep = [] -> stops (render rest)) -> wf_items false rest ->
  wf_items false ((t, sep) :: rest).
Proof. intros Ht Hc Hs Hn H. cbn [LexProofs.wf_items]. repeat split; [exact Ht|exact Hs|intros E _; apply Hn; exact E|rewrite Hc; discriminate|exact H]. Qed.

Lemma wf_list {A} (k : A -> tok) l trail rest : Forall (fun x => wf_tok false (k x)) l -> (forall x, is_comment (k x) = false) ->
  all_space trail -> wf_items false rest -> wf_items false ((KLParen, []) :: sepitems (map k l) ++ (KRParen, trail) :: rest).
Proof.
  intros Hl Hk Ht Hr. apply wf_open. induction l as [|a [|b l] IH]; [apply wf_close; assumption| |]; inversion Hl; subst.
  - apply wf_cons; [assumption|apply Hk|constructor|reflexivity|apply wf_close; assumption].
  - change (sepitems (map k (a :: b :: l))) with ((k a, [32%N]) :: sepitems (map k (b :: l))).
    apply wf_cons; [assumption|apply Hk|repeat constructor|discriminate|apply IH; assumption].
Qed.

(* A layout of the tree's tokens: one space inside a literal list, `lead depth c` in front of operand c of a node at
   `depth`. The printers write that white space in front of the operand; a layout lists it behind the preceding token,
   so every subtree is told what follows it: `trail`. *)
Section Layout.
  Variable lead : nat -> tree -> str.
  Hypothesis lead_space : forall depth c, all_space (lead depth c) /\ lead depth c <> [].

  Definition next_lead (depth : nat) (cs : list tree) : str :=
    match cs with [] => [] | c :: _ => lead depth c end.

  Fixpoint items (t : tree) (depth : nat) (trail : str) : list (tok * str) :=
    match t with
    | TConst v => vitems v trail
    | TVar n _ => [(KIdent n, trail)]
    | TOp name _ cs =>
      (KLParen, []) :: (KIdent name, next_lead depth cs) ::
        (fix go (cs : list tree) : list (tok * str) :=
           match cs with [] => [] | c :: cs' => items c (S depth) (next_lead depth cs') ++ go cs' end) cs
        ++ [(KRParen, trail)]
    | TIf a b d =>
      (KLParen, []) :: (KIdent (ss keyword_if), lead depth a) ::
        items a (S depth) (lead depth b) ++ items b (S depth) (lead depth d) ++ items d (S depth) [] ++ [(KRParen, trail)]
    end.

  Definition items_list (depth : nat) : list tree -> list (tok * str) :=
    fix go (cs : list tree) : list (tok * str) :=
      match cs with [] => [] | c :: cs' => items c (S depth) (next_lead depth cs') ++ go cs' end.

  Lemma items_op name fast cs depth trail : items (TOp name fast cs) depth trail =
    (KLParen, []) :: (KIdent name, next_lead depth cs) :: items_list depth cs ++ [(KRParen, trail)].
  Proof. reflexivity. Qed.

  Lemma render_items_list (txt : tree -> nat -> str) depth cs :
    Forall (fun c => forall d trail, render (items c d trail) = txt c d ++ trail) cs ->
    next_lead depth cs ++ render (items_list depth cs) = concat (map (fun c => lead depth c ++ txt c (S depth)) cs).
  Proof.
    induction 1 as [|c cs' Hc _ IHl]; [reflexivity|].
    cbn [next_lead items_list map concat]. rewrite render_app, Hc, <- !app_assoc, IHl. reflexivity.
  Qed.

  Lemma items_tokens : forall t, lexable t -> forall depth trail, map fst (items t depth trail) = ttoks show_Z t.
  Proof.
    induction t as [v|n k|name fast cs IH|a b d IHa IHb IHd] using tree_ind2; intros Hl depth trail.
    - destruct v as [z|[]|s|li|ls|si|ss'| | |o]; cbn [lexable vlex] in Hl; try contradiction; cbn [items vitems ttoks vtoks map fst]; rewrite ?map_app, ?map_fst_sepitems; reflexivity.
    - reflexivity.
    - apply lexable_op in Hl. destruct Hl as [_ Hl]. rewrite items_op. cbn [map fst ttoks]. rewrite map_app. do 3 f_equal.
      clear name fast trail. induction IH as [|c cs' Hc _ IHl]; [reflexivity|]. inversion Hl; subst.
      cbn [items_list flat_map]. rewrite map_app, Hc, IHl by assumption. reflexivity.
    - destruct Hl as (Ha & Hb & Hd). cbn [items ttoks map fst]. rewrite !map_app, IHa, IHb, IHd by assumption. reflexivity.
  Qed.

  Lemma next_lead_space depth cs : all_space (next_lead depth cs) /\ (next_lead depth cs = [] -> cs = []).
  Proof. destruct cs as [|c cs]; [split; [constructor|reflexivity]|]. destruct (lead_space depth c) as [H1 H2]. split; [exact H1|intros E; destruct (H2 E)]. Qed.

  Lemma wf_items_tree : forall t, lexable t -> forall depth trail rest,
    all_space trail -> (trail = [] -> stops (render rest)) -> wf_items false rest ->
    wf_items false (items t depth trail ++ rest).
  Proof.
    induction t as [v|n k|name fast cs IH|a b d IHa IHb IHd] using tree_ind2; intros Hl depth trail rest Hs Hn Hr.
    - destruct v as [z|[]|s|li|ls|si|ss'| | |o]; cbn [lexable vlex] in Hl; try contradiction; cbn [items vitems app].
      + apply wf_cons; [apply show_Z_tok; exact Hl|reflexivity|assumption..].
      + apply wf_cons; [apply wf_true|reflexivity|assumption..].
      + apply wf_cons; [apply wf_false|reflexivity|assumption..].
      + apply wf_cons; [exact Hl|reflexivity|assumption..].
      + rewrite <- app_assoc. apply wf_list; [eapply Forall_impl; [|exact Hl]; apply show_Z_tok|reflexivity|assumption..].
      + rewrite <- app_assoc. apply wf_list; [exact Hl|reflexivity|assumption..].
    - cbn [items app]. apply wf_cons; [assumption|reflexivity|assumption..].
    - apply lexable_op in Hl. destruct Hl as [Hname Hcs]. rewrite items_op. cbn [app]. rewrite <- app_assoc. cbn [app].
      assert (HL : forall r, rparen_first r -> wf_items false r -> wf_items false (items_list depth cs ++ r)).
      { clear Hname name fast. induction IH as [|c cs' Hc _ IHl]; intros r Hcl Hwr; [exact Hwr|]. inversion Hcs; subst.
        cbn [items_list]. rewrite <- app_assoc. destruct (next_lead_space depth cs') as [A1 A2]. apply Hc; [assumption|exact A1| |apply IHl; assumption].
        intros E. rewrite (A2 E). apply rparen_first_stops. exact Hcl. }
      apply wf_open. destruct (next_lead_space depth cs) as [A1 A2]. apply wf_cons; [exact Hname|reflexivity|exact A1| |].
      + intros E. rewrite (A2 E). reflexivity.
      + apply HL; [eexists _, _; reflexivity|apply wf_close; assumption].
    - destruct Hl as (Ha & Hb & Hd). cbn [items app]. rewrite <- !app_assoc. cbn [app].
      assert (L : forall x, all_space (lead depth x) /\ forall r, lead depth x = [] -> stops r) by (intros x; destruct (lead_space depth x) as [L1 L2]; split; [exact L1|intros r E; destruct (L2 E)]).
      apply wf_open, wf_cons, IHa, IHb, IHd, wf_close; try apply L; try assumption; try reflexivity; [apply wf_if|constructor].
  Qed.

  Lemma layout_roundtrip c t : twf c t -> lexable t -> is_leaf t = false ->
    parse_source c false (render (items t 0 [])) = Some (strip t).
  Proof.
    intros Hw Hl Hleaf. apply (prefix_source c show_Z parse_show_Z (items t 0 []) t); [| |exact Hw|exact Hleaf].
    - rewrite <- (app_nil_r (items t 0 [])). apply wf_items_tree; [exact Hl|constructor|reflexivity|exact I].
    - rewrite (items_tokens t Hl). apply ttoks_nocomment.
  Qed.
End Layout.

(* Dump: a space before a leaf, a line break and indentation before an operator *)
Definition dump_lead (depth : nat) (c : tree) : str :=
  if snd (show c (S depth)) then [32%N] else 10%N :: spaces (2 * S depth).

Lemma piece_lead depth c : piece depth (show c (S depth)) = dump_lead depth c ++ fst (show c (S depth)).
Proof. unfold piece, dump_lead. destruct (snd (show c (S depth))); reflexivity. Qed.

Lemma dump_lead_space depth c : all_space (dump_lead depth c) /\ dump_lead depth c <> [].
Proof. unfold dump_lead. destruct (snd _); split; try discriminate; [repeat constructor|constructor; [reflexivity|apply spaces_space]]. Qed.

Lemma render_items : forall t, lexable t -> forall depth trail, render (items dump_lead t depth trail) = fst (show t depth) ++ trail.
Proof.
  induction t as [v|n k|name fast cs IH|a b d IHa IHb IHd] using tree_ind2; intros Hl depth trail.
  - destruct v as [z|[]|s|li|ls|si|ss'| | |o]; cbn [lexable vlex] in Hl; try contradiction; cbn [items vitems show fst show_value render tok_text app];
      rewrite ?render_app, ?render_sepitems, ?map_map; cbn [render tok_text quote app]; rewrite ?app_nil_r, <- ?app_assoc; reflexivity.
  - cbn [items show fst render tok_text]. rewrite app_nil_r. reflexivity.
  - apply lexable_op in Hl. destruct Hl as [_ Hl]. rewrite items_op. cbn [render tok_text app]. rewrite render_app. cbn [render tok_text app]. rewrite app_nil_r.
    assert (G : next_lead dump_lead depth cs ++ render (items_list dump_lead depth cs) = concat (map (fun c => piece depth (show c (S depth))) cs)).
    { rewrite (map_ext _ _ (piece_lead depth)). exact (render_items_list dump_lead (fun c d => fst (show c d)) depth cs (Forall_mp _ _ _ IH Hl)). }
    cbn [show]. destruct cs as [|c0 cs0]; cbn [fst app]; [|rewrite <- G]; rewrite <- !app_assoc; reflexivity.
  - destruct Hl as (Ha & Hb & Hd). cbn [items render tok_text app]. rewrite !render_app, IHa, IHb, IHd by assumption.
    cbn [render tok_text app show fst concat]. rewrite !piece_lead, !app_nil_r, <- !app_assoc. reflexivity.
Qed.

Theorem dump_roundtrip c t : twf c t -> lexable t -> is_leaf t = false ->
  match dump (compile t) with Some s => parse_source c false s | None => None end = Some (strip t).
Proof.
  intros Hw Hl Hleaf. rewrite dump_compile, <- (app_nil_r (fst (show t 0))), <- (render_items t Hl).
  apply (layout_roundtrip dump_lead dump_lead_space); assumption.
Qed.

Print Assumptions dump_roundtrip.

(* dumping the recompiled, unoptimised program reproduces the text exactly *)
Lemma show_strip : forall t depth, show (strip t) depth = show t depth.
Proof.
  induction t as [v|n k|name fast cs IH|a b d IHa IHb IHd] using tree_ind2; intros depth; try reflexivity.
  - assert (E : map (fun c => piece depth (show c (S depth))) (map strip cs) = map (fun c => piece depth (show c (S depth))) cs).
    { rewrite map_map. apply map_ext_Forall. revert IH. apply Forall_impl. intros c Hc. rewrite Hc. reflexivity. }
    cbn [strip show]. rewrite E. destruct cs; reflexivity.
  - cbn [strip show]. rewrite IHa, IHb, IHd. reflexivity.
Qed.

Theorem second_dump t : dump (compile (strip t)) = dump (compile t).
Proof. rewrite !dump_compile, show_strip. reflexivity. Qed.

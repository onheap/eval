(* PrefixProofs.v — the prefix parser (parseExpression with its leaf parsers) inverts the token-level printing of a
   tree: what Dump prints (operator heads, variables by name, literals, lists in parentheses) reads back as the same
   tree with the fast marks cleared. Used by C13 (Dump round trip) and C15 (the prefix form of an infix expression). *)
Require Import Base Tables Ops Tree Lexer Parser ListFacts LexProofs.
Open Scope Z_scope.
Open Scope list_scope.

(* the parsed tree never carries fast marks *)
Fixpoint strip (t : tree) : tree :=
  match t with
  | TOp name _ cs => TOp name false (map strip cs)
  | TIf c t f => TIf (strip c) (strip t) (strip f)
  | _ => t
  end.

(* parseList: literals of one kind k between delimiters, ( ) in prefix and [ ] in infix notation *)

Lemma collect_run ints right (k : str -> tok) cl : right cl = true ->
  (forall s ts acc, collect_list ints right (k s :: ts) acc = collect_list ints right ts (s :: acc)) ->
  forall l rest acc, collect_list ints right (map k l ++ cl :: rest) acc = Some (rev acc ++ l, Some rest).
Proof.
  intros Hcl Hk. induction l as [|s l IH]; intros rest acc; cbn [map app].
  - cbn [collect_list]. rewrite Hcl, app_nil_r. reflexivity.
  - rewrite Hk, IH. cbn [rev]. rewrite <- app_assoc. reflexivity.
Qed.

Lemma parse_int_list left right op cl l zs rest :
  left op = true -> right cl = true -> (forall s, right (KInt s) = false) -> l <> [] -> all_parse_int l = Some zs ->
  parse_list left right (op :: map KInt l ++ cl :: rest) = LOk (TConst (VIntL zs)) rest.
Proof.
  intros Hop Hcl Hr Hn Hz.
  assert (Hk : forall s ts acc, collect_list true right (KInt s :: ts) acc = collect_list true right ts (s :: acc)).
  { intros s ts acc. cbn [collect_list]. rewrite Hr. reflexivity. }
  destruct l as [|s l]; [congruence|]. unfold parse_list. cbn [map app tok_is_int].
  rewrite Hop, Hr, Hk, (collect_run true right KInt cl Hcl Hk). cbn [rev app]. rewrite Hz. reflexivity.
Qed.

Lemma parse_str_list left right op cl l rest : left op = true -> right cl = true -> (forall s, right (KStr s) = false) ->
  parse_list left right (op :: map KStr l ++ cl :: rest) = LOk (TConst (VStrL l)) rest.
Proof.
  intros Hop Hcl Hr.
  assert (Hk : forall s ts acc, collect_list false right (KStr s :: ts) acc = collect_list false right ts (s :: acc)).
  { intros s ts acc. cbn [collect_list]. rewrite Hr. reflexivity. }
  unfold parse_list. destruct l as [|s l]; cbn [map app tok_is_int tok_is_str]; rewrite Hop.
  - cbn [collect_list]. rewrite Hcl. reflexivity.
  - rewrite Hr, Hk, (collect_run false right KStr cl Hcl Hk). reflexivity.
Qed.

Section P.
  Variable c : pconf.
  (* the decimal text of an integer: any printer that strconv.ParseInt inverts (Print.show_Z is compared with
     Go's on every Dump) *)
  Variable show : Z -> str.
  Hypothesis show_ok : forall z, in_i64 z = true -> parse_int (show z) = Some z.

  Definition vtoks (v : value) : list tok :=
    match v with
    | VInt z => [KInt (show z)]
    | VBool true => [KIdent (ss "true")]
    | VBool false => [KIdent (ss "false")]
    | VStr s => [KStr s]
    | VIntL l => KLParen :: map (fun z => KInt (show z)) l ++ [KRParen]
    | VStrL l => KLParen :: map KStr l ++ [KRParen]
    | _ => []
    end.

  Fixpoint ttoks (t : tree) : list tok :=
    match t with
    | TConst v => vtoks v
    | TVar n _ => [KIdent n]
    | TOp name _ cs => KLParen :: KIdent name :: flat_map ttoks cs ++ [KRParen]
    | TIf a b d => KLParen :: KIdent (ss keyword_if) :: ttoks a ++ ttoks b ++ ttoks d ++ [KRParen]
    end.

  Definition vwf (v : value) : Prop :=
    match v with
    | VInt z => in_i64 z = true
    | VBool _ | VStr _ | VStrL _ => True
    | VIntL l => l <> [] /\ Forall (fun z => in_i64 z = true) l
    | _ => False
    end.

  Fixpoint twf (t : tree) : Prop :=
    match t with
    | TConst v => vwf v
    | TVar n k => builtin_const n = None /\ assoc n (p_consts c) = None /\ assoc n (p_vars c) = Some k
    | TOp name _ cs =>
      is_keyword name = false /\ is_operator c name = true /\
      (fix all (l : list tree) : Prop := match l with [] => True | a :: l' => twf a /\ all l' end) cs
    | TIf a b d => twf a /\ twf b /\ twf d
    end.

  Lemma twf_op name fast cs : twf (TOp name fast cs) <-> is_keyword name = false /\ is_operator c name = true /\ Forall twf cs.
  Proof. cbn [twf]. rewrite (all_Forall twf). tauto. Qed.

  Lemma ttoks_if a b d : ttoks (TIf a b d) = KLParen :: KIdent (ss keyword_if) :: flat_map ttoks [a; b; d] ++ [KRParen].
  Proof. cbn [ttoks flat_map]. rewrite app_nil_r, <- !app_assoc. reflexivity. Qed.

  Lemma all_parse_show l : Forall (fun z => in_i64 z = true) l -> all_parse_int (map show l) = Some l.
  Proof.
    induction 1 as [|z l Hz _ IH]; cbn [map all_parse_int]; [reflexivity|]. rewrite (show_ok z Hz), IH. reflexivity.
  Qed.

  Lemma leaf_const v rest : vwf v -> leaf c false (vtoks v ++ rest) = LOk (TConst v) rest.
  Proof.
    destruct v as [z|b|s|li|ls|si|ss'| | |o]; cbn [vwf]; intros H; try contradiction.
    - cbn [vtoks app leaf]. rewrite (show_ok z H). reflexivity.
    - destruct b; reflexivity.
    - reflexivity.
    - destruct H as [Hn Hl]. cbn [vtoks app leaf]. rewrite <- app_assoc, <- map_map.
      apply parse_int_list; [reflexivity..| |apply all_parse_show, Hl]. destruct li; [congruence|discriminate].
    - cbn [vtoks app leaf]. rewrite <- app_assoc. apply parse_str_list; reflexivity.
  Qed.

  Lemma leaf_var n k rest : twf (TVar n k) -> leaf c false (KIdent n :: rest) = LOk (TVar n k) rest.
  Proof. intros (H1 & H2 & H3). cbn [leaf]. rewrite H1, H2, H3. reflexivity. Qed.

  Lemma leaf_open name rest : leaf c false (KLParen :: KIdent name :: rest) = LNone.
  Proof. reflexivity. Qed.

  Lemma ttoks_head t : twf t -> exists t0 more, ttoks t = t0 :: more /\ t0 <> KRParen.
  Proof.
    destruct t as [v|n k|name fast cs|a b d]; intros H; [|eexists _, _; split; [reflexivity|discriminate]..].
    destruct v as [z|[]|s|li|ls|si|ss'| | |o]; try contradiction H; eexists _, _; (split; [reflexivity|discriminate]).
  Qed.

  Definition children_loop (f : nat) (car : str) :=
    fix children (k : nat) (ts : list tok) (acc : list tree) : option (tree * list tok) :=
      match k with
      | O => None
      | S k' =>
        match ts with
        | [] => None
        | KRParen :: rest' => match build_parent c car (rev acc) with Some t => Some (t, rest') | None => None end
        | _ => match parse_expr c false f ts with
               | Some (ch, rest') => children k' rest' (ch :: acc)
               | None => None
               end
        end
      end.

  (* The one place where parseExpression is unfolded: later steps rewrite with this equation. Identifying the loop of
     the unfolded fixpoint (whose calls of the parser are the fixpoint itself) with children_loop (which calls it by
     name) is dear to check, the loop's last branch standing for eight kinds of token; cbn folds the calls back, so that
     reflexivity has nothing to do and only Qed pays. *)
  Lemma parse_expr_S f ts : parse_expr c false (S f) ts =
    match leaf c false ts with
    | LOk t rest => Some (t, rest)
    | LErr => None
    | LNone => match ts with
               | KLParen :: KIdent car :: rest => children_loop f car (S (length rest)) rest []
               | _ => None
               end
    end.
  Proof. cbn [parse_expr]. reflexivity. Qed.

  Definition parses (t : tree) : Prop :=
    twf t -> forall f rest, (length (ttoks t) < f)%nat -> parse_expr c false f (ttoks t ++ rest) = Some (strip t, rest).

  (* every operand uses one round of the loop and at least one token *)
  Lemma children_ok f car cs : Forall twf cs -> Forall parses cs -> (length (flat_map ttoks cs) < f)%nat ->
    forall k acc rest t, (length (flat_map ttoks cs) < k)%nat -> build_parent c car (rev acc ++ map strip cs) = Some t ->
      children_loop f car k (flat_map ttoks cs ++ KRParen :: rest) acc = Some (t, rest).
  Proof.
    intros Hw HP. revert Hw. induction HP as [|a cs Ha _ IH]; intros Hw Hf k acc rest t Hk Hb; (destruct k as [|k]; [inversion Hk|]).
    - cbn [children_loop flat_map app]. rewrite app_nil_r in Hb. rewrite Hb. reflexivity.
    - inversion Hw as [|? ? Hwa Hwcs]; subst. cbn [flat_map map] in *. rewrite <- app_assoc. rewrite app_length in Hf, Hk.
      destruct (ttoks_head a Hwa) as (t0 & more & E0 & Hne).
      assert (Hstep : children_loop f car (S k) (ttoks a ++ flat_map ttoks cs ++ KRParen :: rest) acc
                      = children_loop f car k (flat_map ttoks cs ++ KRParen :: rest) (strip a :: acc)).
      { cbn [children_loop]. rewrite (Ha Hwa f) by lia. rewrite E0. destruct t0; try reflexivity. congruence. }
      rewrite Hstep. rewrite E0 in Hf, Hk. cbn [length] in Hf, Hk. apply IH; [exact Hwcs|lia|lia|].
      cbn [rev]. rewrite <- app_assoc. exact Hb.
  Qed.

  Lemma flat_len (cs : list tree) : (length cs <= length (flat_map ttoks cs) + 0)%nat -> True.
  Proof. trivial. Qed.

  Lemma parses_node car cs t f rest : Forall twf cs -> Forall parses cs -> build_parent c car (map strip cs) = Some t ->
    (length (KLParen :: KIdent car :: flat_map ttoks cs ++ [KRParen]) < f)%nat ->
    parse_expr c false f ((KLParen :: KIdent car :: flat_map ttoks cs ++ [KRParen]) ++ rest) = Some (t, rest).
  Proof.
    intros Hw HP Hb Hf. destruct f as [|f]; [inversion Hf|]. cbn [app length] in *. rewrite <- app_assoc. rewrite app_length in Hf.
    rewrite parse_expr_S. cbn [leaf parse_list is_lparen is_rparen tok_is_int tok_is_str].
    apply children_ok; [exact Hw|exact HP|lia|rewrite app_length; lia|exact Hb].
  Qed.

  Theorem parses_all : forall t, parses t.
  Proof.
    induction t as [v|n k|name fast cs IH|a b d IHa IHb IHd] using tree_ind2; intros Hw f rest Hf.
    - destruct f as [|f]; [inversion Hf|]. cbn [ttoks]. rewrite parse_expr_S, (leaf_const v rest Hw). reflexivity.
    - destruct f as [|f]; [inversion Hf|]. cbn [ttoks app]. rewrite parse_expr_S, (leaf_var n k rest Hw). reflexivity.
    - apply twf_op in Hw. destruct Hw as (Hk & Ho & Hcs). apply parses_node; [exact Hcs|exact IH| |exact Hf].
      unfold build_parent. rewrite Hk, Ho. reflexivity.
    - destruct Hw as (Hwa & Hwb & Hwd). rewrite ttoks_if in *.
      apply (parses_node _ [a; b; d]); [repeat constructor; assumption..|reflexivity|exact Hf].
  Qed.

  Lemma ttoks_nocomment : forall t, drop_comments (ttoks t) = ttoks t.
  Proof.
    intros t. apply drop_comments_id.
    induction t as [v|n k|name fast cs IH|a b d IHa IHb IHd] using tree_ind2; cbn [ttoks].
    - destruct v as [z|[]|s|li|ls|si|ss'| | |o]; cbn [vtoks]; repeat constructor;
        (apply Forall_app; split; [apply Forall_map, Forall_forall; reflexivity|repeat constructor]).
    - repeat constructor.
    - repeat constructor. apply Forall_app. split; [apply Forall_flat_map, IH|repeat constructor].
    - repeat constructor. rewrite !Forall_app. repeat split; try assumption. repeat constructor.
  Qed.

  Theorem parse_prefix_correct t : twf t -> parse_prefix c false (ttoks t) = Some (strip t).
  Proof.
    intros Hw. unfold parse_prefix. pose proof (parses_all t Hw (S (length (ttoks t))) [] ltac:(lia)) as H.
    rewrite app_nil_r in H. rewrite H. reflexivity.
  Qed.
End P.

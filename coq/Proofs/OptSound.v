(* OptSound.v — C02: every optimisation pass preserves an order-insensitive denotation `den`, and
   left-to-right evaluation refines it on expressions whose and/or operands are boolean; hence any two
   configurations that both return a value return the same one. *)
Require Import Base Ops Tree Opt OpsArith SemFacts Pass Fold Reorder ListFacts.
From Coq Require Import Permutation.
Open Scope Z_scope.
Open Scope list_scope.

Definition is_some_bool (d : bool) (o : option value) : bool :=
  match o with Some (VBool b) => Bool.eqb b d | _ => false end.

Fixpoint all_some {A} (l : list (option A)) : option (list A) :=
  match l with
  | [] => Some []
  | Some x :: l' => match all_some l' with Some r => Some (x :: r) | None => None end
  | None :: _ => None
  end.

Lemma all_some_map {A} (vs : list A) : all_some (map Some vs) = Some vs.
Proof. induction vs; cbn; [reflexivity|]. rewrite IHvs. reflexivity. Qed.

Lemma all_some_Forall2 {A B} (f : A -> option B) l vs :
  all_some (map f l) = Some vs <-> Forall2 (fun x v => f x = Some v) l vs.
Proof.
  revert vs. induction l as [|x l IH]; intros vs; cbn [map all_some].
  - split; intros H; inversion H; constructor.
  - split.
    + destruct (f x) eqn:E; [|discriminate]. destruct (all_some (map f l)); [|discriminate].
      intros H. inversion H. constructor; [exact E|apply IH; reflexivity].
    + intros H. inversion H as [|? v ? r Hx Hr]. rewrite Hx. apply IH in Hr. rewrite Hr. reflexivity.
Qed.

Lemma existsb_perm {A} (f : A -> bool) l l' : Permutation l l' -> existsb f l = existsb f l'.
Proof. induction 1; cbn; try congruence; [destruct (f x), (f y); reflexivity]. Qed.
Lemma forallb_perm {A} (f : A -> bool) l l' : Permutation l l' -> forallb f l = forallb f l'.
Proof. induction 1; cbn; try congruence; [destruct (f x), (f y); reflexivity]. Qed.

Lemma op_kind_boolop name d : op_kind name = Some d -> is_boolop name = true.
Proof. unfold op_kind, is_boolop. destruct (is_and name); [reflexivity|]. destruct (is_or name); [reflexivity|discriminate]. Qed.
Lemma op_kind_none name : op_kind name = None -> is_boolop name = false.
Proof. unfold op_kind, is_boolop. destruct (is_and name); [discriminate|]. destruct (is_or name); [discriminate|reflexivity]. Qed.

Section D.
  Variable fetch : str -> Z -> res value.
  Variable custom : str -> list value -> res value.
  Notation apply_op := (apply_op custom).
  Notation sem := (sem fetch custom).
  Notation sem_args := (sem_args fetch custom).

  Lemma boolop_inv name d ps r : op_kind name = Some d -> apply_op name ps = Ok r ->
    exists bs, ps = bools bs /\ (2 <= length bs)%nat /\ r = VBool (if existsb (Bool.eqb d) bs then d else negb d).
  Proof.
    intros Hk H. pose proof H as H'. unfold Tree.apply_op in H'. rewrite (kind_builtin _ _ Hk) in H'.
    destruct (logic_ok_inv _ _ _ H') as (bs & -> & Hl). exists bs.
    rewrite (boolop_apply custom name d bs Hk Hl) in H. inversion H. auto.
  Qed.

  Definition comb_den (name : str) (ds : list (option value)) : option value :=
    match op_kind name with
    | Some d => if existsb (is_some_bool d) ds then Some (VBool d)
                else if forallb (is_some_bool (negb d)) ds then Some (VBool (negb d)) else None
    | None => match all_some ds with
              | Some vs => match apply_op name vs with Ok r => Some r | Err _ => None end
              | None => None
              end
    end.

  (* the order-insensitive denotation: and/or are decided by any deciding operand, "fails" is undefined *)
  Fixpoint den (t : tree) : option value :=
    match t with
    | TConst v => Some v
    | TVar n k => match fetch n k with Ok v => Some v | Err _ => None end
    | TOp name _ cs => comb_den name (map den cs)
    | TIf c t f => match den c with Some (VBool true) => den t | Some (VBool false) => den f | _ => None end
    end.

  Definition boolish (c : tree) : Prop := den c = None \/ exists b, den c = Some (VBool b).

  (* the property's domain, semantically: every operand of an and/or is boolean-valued or undefined *)
  Fixpoint wt (t : tree) : Prop :=
    match t with
    | TConst _ | TVar _ _ => True
    | TOp name _ cs =>
      (fix all (l : list tree) : Prop := match l with [] => True | c :: l' => wt c /\ all l' end) cs /\
      (forall d, op_kind name = Some d -> Forall boolish cs)
    | TIf c t f => wt c /\ wt t /\ wt f
    end.

  Lemma wt_op name fast cs : wt (TOp name fast cs) <-> Forall wt cs /\ (forall d, op_kind name = Some d -> Forall boolish cs).
  Proof. cbn [wt]. rewrite (all_Forall wt). reflexivity. Qed.

  Lemma comb_den_bool name d ds : op_kind name = Some d ->
    comb_den name ds = if existsb (is_some_bool d) ds then Some (VBool d)
                       else if forallb (is_some_bool (negb d)) ds then Some (VBool (negb d)) else None.
  Proof. intros H. unfold comb_den. rewrite H. reflexivity. Qed.

  Lemma apply_den name vs r : apply_op name vs = Ok r -> comb_den name (map Some vs) = Some r.
  Proof.
    intros Ha. destruct (op_kind name) as [d|] eqn:Hk; [|unfold comb_den; rewrite Hk, all_some_map, Ha; reflexivity].
    destruct (boolop_inv name d vs r Hk Ha) as (bs & -> & _ & ->). rewrite (comb_den_bool _ _ _ Hk). clear.
    induction bs as [|b bs IH]; [reflexivity|]. cbn [bools map existsb forallb is_some_bool].
    destruct b, d; cbn; try reflexivity; exact IH.
  Qed.

  Lemma is_some_bool_comb d name ds : op_kind name = Some d ->
    is_some_bool d (comb_den name ds) = existsb (is_some_bool d) ds /\
    is_some_bool (negb d) (comb_den name ds) = negb (existsb (is_some_bool d) ds) && forallb (is_some_bool (negb d)) ds.
  Proof.
    intros Hk. rewrite (comb_den_bool _ _ _ Hk). destruct (existsb (is_some_bool d) ds).
    - cbn. rewrite Bool.eqb_reflx. destruct d; split; reflexivity.
    - destruct (forallb (is_some_bool (negb d)) ds); cbn; [rewrite Bool.eqb_reflx; destruct d; split; reflexivity|split; reflexivity].
  Qed.

  Lemma flatten_den d n : op_kind n = Some d -> forall cs l, flatten (negb d) cs = Some l ->
    comb_den n (map den l) = comb_den n (map den cs).
  Proof.
    intros Hn cs l Ef. rewrite !(comb_den_bool _ _ _ Hn).
    enough (H : existsb (is_some_bool d) (map den l) = existsb (is_some_bool d) (map den cs) /\
                (existsb (is_some_bool d) (map den cs) = false ->
                 forallb (is_some_bool (negb d)) (map den l) = forallb (is_some_bool (negb d)) (map den cs))).
    { destruct H as [-> H]. destruct (existsb _ (map den cs)); [reflexivity|]. rewrite H; reflexivity. }
    revert cs l Ef. apply flatten_ind; [split; reflexivity| |].
    - intros c cs l _ [H1 H2]. cbn [map existsb forallb]. rewrite H1. split; [reflexivity|].
      intros E. apply orb_false_iff in E. rewrite (H2 (proj2 E)). reflexivity.
    - intros m f gcs cs l Hk [H1 H2]. destruct (is_some_bool_comb d m (map den gcs) Hk) as [G1 G2].
      rewrite map_app, existsb_app, forallb_app. cbn [map existsb forallb den]. rewrite H1, G1, G2. split; [reflexivity|].
      (* undecided: the group's result is negb d exactly when all its operands are *)
      intros E. apply orb_false_iff in E. destruct E as [-> E]. rewrite (H2 E). reflexivity.
  Qed.

  Definition sound (t t' : tree) : Prop := den t' = den t /\ (wt t -> wt t').

  Lemma sound_refl t : sound t t.
  Proof. split; auto. Qed.
  Lemma sound_trans a b c : sound a b -> sound b c -> sound a c.
  Proof. intros [D1 W1] [D2 W2]. split; [congruence|auto]. Qed.

  Lemma sound_op n f f' cs cs' : Forall2 sound cs cs' -> sound (TOp n f cs) (TOp n f' cs').
  Proof.
    intros H. pose proof (Forall2_map_eq den den (fun _ _ S => proj1 S) H) as E.
    split; [cbn [den]; rewrite E; reflexivity|]. rewrite !wt_op. intros [W B]. split.
    - exact (Forall2_Forall (fun _ _ S => proj2 S) H W).
    - intros d Hk. refine (Forall2_Forall _ H (B d Hk)). unfold boolish. intros x y [-> _]. auto.
  Qed.

  Theorem sound_pass p node : is_pass p node -> (forall n f cs, sound (TOp n f cs) (node n f cs)) -> forall t, sound t (p t).
  Proof.
    intros Hp Hn. apply (pass_rel p node Hp sound).
    - intros. apply sound_refl.
    - intros n f cs cs' H. apply (sound_trans _ (TOp n f cs')); [apply sound_op; exact H|apply Hn].
    - intros c t f c' t' f' [Dc Wc] [Dt Wt] [Df Wf]. split; [cbn [den]; rewrite Dc, Dt, Df; reflexivity|cbn [wt]; tauto].
  Qed.

  Lemma sound_mark n f f' cs : sound (TOp n f cs) (TOp n f' cs).
  Proof. split; [reflexivity|exact (fun H => H)]. Qed.

  Lemma sound_fastp : forall t, sound t (fastp t).
  Proof. apply (sound_pass _ _ fastp_pass). intros. apply sound_mark. Qed.

  Lemma sound_reorder sorter : (forall l, Permutation (sorter l) l) -> forall t, sound t (reorder_with sorter t).
  Proof.
    intros Hs. apply (sound_pass _ _ (reorder_pass sorter)). intros n f cs.
    destruct (op_kind n) as [d|] eqn:Hk; [|rewrite (op_kind_none _ Hk); apply sound_refl]. rewrite (op_kind_boolop _ _ Hk). split.
    - cbn [den]. rewrite !(comb_den_bool _ _ _ Hk).
      rewrite (existsb_perm _ _ _ (Permutation_map den (Hs cs))), (forallb_perm _ _ _ (Permutation_map den (Hs cs))). reflexivity.
    - rewrite !wt_op. intros [W B]. pose proof (Permutation_sym (Hs cs)) as Hp.
      split; [|intros d' Hd; specialize (B d' Hd)]; eapply Permutation_Forall; eassumption.
  Qed.

  Theorem den_reorder sorter : (forall l, Permutation (sorter l) l) -> forall t, den (reorder_with sorter t) = den t.
  Proof. intros Hs t. apply (sound_reorder sorter Hs). Qed.

  Lemma flatten_wt d n f cs l : op_kind n = Some d -> flatten (negb d) cs = Some l -> wt (TOp n f cs) -> wt (TOp n f l).
  Proof.
    intros Hk Ef. rewrite !wt_op. intros [W B].
    assert (G : Forall (fun c => wt c /\ boolish c) l).
    { apply (flatten_Forall d _) with (cs := cs); [|exact Ef|exact (Forall_and W (B d Hk))].
      intros n' f' gcs Hk' [H _]. apply wt_op in H. exact (Forall_and (proj1 H) (proj2 H d Hk')). }
    apply Forall_and_inv in G. split; [|intros _ _]; apply G.
  Qed.

  Lemma sound_nest : forall t, sound t (nest t).
  Proof.
    apply (sound_pass _ _ nest_pass). intros n f cs. apply nest_node_cases; [apply sound_refl|]. intros d l Hk Ef. split.
    - exact (flatten_den d n Hk cs l Ef).
    - exact (flatten_wt d n f cs l Hk Ef).
  Qed.

  Variable cfg : config.

  Lemma sound_cfold : forall t, sound t (fst (cfold custom cfg t)).
  Proof.
    apply (sound_pass _ _ (cfold_pass custom cfg)). intros n f cs. apply fold_node_fst; [apply sound_refl| |].
    - intros d Hk Hin. split; [|intros; exact I]. cbn [den]. rewrite (comb_den_bool _ _ _ Hk).
      replace (existsb (is_some_bool d) (map den cs)) with true; [reflexivity|]. symmetry. apply existsb_exists.
      exists (den (TConst (VBool d))). split; [apply in_map; exact Hin|apply Bool.eqb_reflx].
    - intros vs r -> Ha. split; [|intros; exact I]. cbn [den]. rewrite map_map. symmetry. exact (apply_den n vs r Ha).
  Qed.

  Lemma sound_optimize t : sound t (optimize custom cfg t).
  Proof.
    apply optimize_rel; [exact sound_refl|exact sound_trans|exact sound_cfold|exact sound_nest|exact sound_fastp|].
    apply sound_reorder. intros l. apply Reorder.sort_perm.
  Qed.

  Theorem den_optimize t : den (optimize custom cfg t) = den t.
  Proof. apply sound_optimize. Qed.

  Theorem wt_optimize t : wt t -> wt (optimize custom cfg t).
  Proof. apply sound_optimize. Qed.

  Definition refines (t : tree) : Prop := forall v, snd (sem t) = Ok v -> den t = Some v.

  Lemma args_refine_plain name : op_kind name = None -> forall cs, Forall refines cs -> forall acc v,
    snd (sem_args name cs acc) = Ok v -> exists vs, all_some (map den cs) = Some vs /\ apply_op name (rev acc ++ vs) = Ok v.
  Proof.
    intros Hk. induction 1 as [|c cs Hc _ IH]; intros acc v H; cbn [Tree.sem_args] in H.
    - exists []. rewrite app_nil_r. auto.
    - destruct (sem c) as [tr [vc|e]] eqn:Ec; [|discriminate]. rewrite Hk in H.
      destruct (IH _ _ H) as (vs & E & A). exists (vc :: vs). cbn [map all_some].
      rewrite (Hc vc) by (rewrite Ec; reflexivity). rewrite E. split; [reflexivity|].
      cbn [rev] in A. rewrite <- app_assoc in A. exact A.
  Qed.

  (* an and/or of kind d: the operands passed so far (acc) were all negb d, so the result - a deciding operand, a
     last operand, or the operator applied to non-deciding booleans - is the combination of the remaining operands *)
  Lemma args_refine_bool name d : op_kind name = Some d -> forall cs, Forall refines cs -> Forall boolish cs ->
    forall acc v, Forall (fun a => a = VBool (negb d)) acc ->
    snd (sem_args name cs acc) = Ok v -> comb_den name (map den cs) = Some v.
  Proof.
    intros Hk. induction 1 as [|c cs Hc _ IH]; intros Hb acc v Hacc H; cbn [Tree.sem_args] in H; rewrite (comb_den_bool _ _ _ Hk).
    - destruct (Nat.le_gt_cases 2 (length acc)) as [L|L]; [|destruct (apply_few custom name d acc Hk L v H)].
      rewrite (apply_all_nd custom name d acc Hk Hacc L) in H. inversion H. reflexivity.
    - destruct (sem c) as [tr [vc|e]] eqn:Ec; [|discriminate]. rewrite Hk in H. inversion Hb as [|? ? Hbc Hbs]; subst.
      cbn [map existsb forallb]. unfold boolish in Hbc. rewrite (Hc vc) in * by (rewrite Ec; reflexivity).
      destruct Hbc as [Hn|[b Hbc]]; [discriminate|]. inversion Hbc; subst vc. cbn [operand_result is_some_bool] in *.
      destruct (Bool.eqb b d) eqn:Eb; [apply Bool.eqb_prop in Eb; inversion H; subst; reflexivity|].
      assert (b = negb d) by (destruct b, d; try reflexivity; discriminate). subst b. rewrite Bool.eqb_reflx. cbn [orb andb] in *.
      destruct cs as [|c2 cs']; [destruct (can_be_last c && _); [inversion H; reflexivity|]|];
        (rewrite <- (comb_den_bool _ _ _ Hk); apply (IH Hbs (VBool (negb d) :: acc)); [constructor; [reflexivity|exact Hacc]|exact H]).
  Qed.

  Theorem sem_refines_den : forall t, wt t -> refines t.
  Proof.
    induction t as [v|n k|name fast cs IH|c t f IHc IHt IHf] using tree_ind2; intros Hw v0 H.
    - cbn in *. congruence.
    - cbn in *. destruct (fetch n k); [congruence|discriminate].
    - apply wt_op in Hw. destruct Hw as [Hw1 Hw2]. cbn [den].
      pose proof (Forall_mp _ _ _ IH Hw1) as Hr.
      destruct (fast_shape fast cs) eqn:Hfs.
      + destruct (fast_shape_inv _ _ Hfs) as (a & b & -> & _ & _ & ->). rewrite (sem_val_fast _ _ _ _ _ Hfs) in H.
        inversion Hr as [|? ? Ra Hr']. inversion Hr' as [|? ? Rb _]. subst.
        destruct (snd (sem a)) as [va|e1] eqn:Ea; [|discriminate]. destruct (snd (sem b)) as [vb|e2] eqn:Eb; [|discriminate].
        cbn [map]. rewrite (Ra va Ea), (Rb vb Eb). exact (apply_den name [va; vb] v0 H).
      + rewrite (sem_op _ _ _ _ _ Hfs) in H. destruct (op_kind name) as [d|] eqn:Hk.
        * exact (args_refine_bool name d Hk cs Hr (Hw2 d eq_refl) [] v0 (Forall_nil _) H).
        * destruct (args_refine_plain name Hk cs Hr [] v0 H) as (vs & E & A). unfold comb_den. cbn [rev app] in A. rewrite Hk, E, A. reflexivity.
    - destruct Hw as (Hwc & Hwt & Hwf). destruct (if_value_inv fetch custom _ _ _ _ H) as (b & Ec & Eb).
      cbn [den]. rewrite (IHc Hwc _ Ec). destruct b; [apply IHt|apply IHf]; assumption.
  Qed.
End D.

(* C02, first sentence: any two configurations (option subsets, cost maps, stateless declarations) that both
   return a value for a binding return the same value — on expressions whose and/or operands are boolean *)
Theorem configurations_agree fetch custom cfgA cfgB t a b : wt fetch custom t ->
  snd (sem fetch custom (optimize custom cfgA t)) = Ok a ->
  snd (sem fetch custom (optimize custom cfgB t)) = Ok b -> a = b.
Proof.
  intros W HA HB.
  apply (sem_refines_den fetch custom _ (wt_optimize fetch custom cfgA t W)) in HA.
  apply (sem_refines_den fetch custom _ (wt_optimize fetch custom cfgB t W)) in HB.
  rewrite den_optimize in HA, HB. congruence.
Qed.

(* EvalCorrect.v — run (compG ev t) is sem t: value, error and observation trace, for every tree, every fetcher
   and every registered-operator function, in both modes of the back end at once; "is" is a relation `R` with
   `EvalDefs.describes ev R`. Arithmetic side conditions go through `arith` (ListFacts.v). *)
Require Import Base Tree Flat Run SemFacts CompFacts CompG EvalDefs EvalInv ListFacts.
From Coq Require Import Lia.
Open Scope Z_scope.
Open Scope list_scope.

Lemma bindT_args_cons fetch custom name c cs' acc K :
  bindT (sem_args fetch custom name (c :: cs') acc) K =
  bindT (sem fetch custom c) (fun v =>
    let lastc := match cs' with [] => can_be_last c && (2 <=? lenZ (c :: cs') + lenZ acc) | _ => false end in
    if operand_result (op_kind name) lastc v then K v else bindT (sem_args fetch custom name cs' (v :: acc)) K).
Proof.
  cbn [sem_args]. destruct (sem fetch custom c) as [tr [v|e]]; [|reflexivity].
  cbv zeta. unfold bindT at 2. cbv beta.
  destruct (operand_result (op_kind name) _ v).
  - reflexivity.
  - rewrite bindT_pre. reflexivity.
Qed.

(* Arriving at the code of a real node, for either evaluator (`step` is `run` or `tryrun`): the event node in front
   of it, when there is one, only reports (one unit of fuel); then the real node is executed (one more). *)
Lemma at_step P ev R (HR : describes ev R) (step : nat -> Z -> list value -> list obs * mres) :
  (forall f i nd pos of stk, getn P i = Some nd -> kind nd = KEvent pos of ->
     step (S f) i stk = preM [OLoop pos of stk] (step f (i + 1) stk)) ->
  forall f base nd stk y,
    (ev = true -> nthZ (nodes P) base = Some (event_node (base + ez ev) nd)) -> getn P (base + ez ev) = Some nd ->
    (need P base <= f)%nat ->
    (forall f', (need P (base + ez ev) <= S f')%nat -> R (base + ez ev) (step (S f') (base + ez ev) stk) y) ->
    R base (step f base stk) y.
Proof.
  intros Hev f base nd stk y. unfold ez, en. pose proof (d_loop ev R HR) as Hloop. destruct ev; intros Ge G Hf H.
  - change (Z.of_nat 1) with 1 in *. specialize (Ge eq_refl). pose proof (nthZ_range _ _ _ Ge) as Rg.
    destruct f as [|[|f']]; [destruct (need_pos _ _ Hf)| |].
    + destruct (need_pos P (base + 1)). apply (need_step _ _ _ _ Hf); lia.
    + rewrite (Hev _ _ _ _ _ _ Ge eq_refl). apply Hloop; [reflexivity|lia|]. apply H. apply (need_step _ _ _ _ Hf); lia.
  - rewrite Z.add_0_r in *. destruct f as [|f']; [destruct (need_pos _ _ Hf)|]. apply H. exact Hf.
Qed.

Section M.
  Variable fetch : str -> Z -> res value.
  Variable custom : str -> list value -> res value.
  Variable P : prog.
  Variable ev : bool.

  Variable R : Z -> list obs * mres -> list obs * mres -> Prop.
  Hypothesis HR : describes ev R.
  Notation R_pre := (d_pre ev R HR).
  Notation R_refl := (d_refl ev R HR).
  Notation R_loop := (d_loop ev R HR).
  Notation R_mono := (d_mono ev R HR).

  Notation L := (lenZ (nodes P)).
  Notation getn := (getn P).
  Notation run := (run fetch custom P).
  Notation landsR := (landsR P).
  Notation fin := (fin P).
  Notation lastI := (lastI P).
  Notation need := (need P).
  Notation afterD := (afterD P).
  Notation landR := (landR P).
  Notation RootInv := (RootInv P).
  Notation AncInv := (AncInv P).
  Notation sem := (sem fetch custom).
  Notation sem_args := (sem_args fetch custom).
  Notation compG := (compG ev lastI).
  Notation gsize := (gsize ev).
  Notation ez := (ez ev).
  Notation mk_fin := (mk_fin P).
  Notation mk_flags := (mk_flags P).
  Notation afterD_unflagged := (afterD_unflagged P).
  Notation afterD_store := (afterD_store P).

  Hypothesis SA : forall i nd, getn i = Some nd -> osTop nd < alloc P.

  (* The code of t sits at base in P; its value goes to slot h = the height of the stack stk it starts on (0 if
     t ends the program); its root is decorated (mf, mt) with RootInv, under ancestors anc with AncInv; if the
     root was flagged by its own parent (not by inheritance from an `if`), a0 is that parent, the head of aidx.
     Then running from base is `sem t` followed by what the root's continuation `afterD … mf (fin mt)` does with
     the value (KR), given enough fuel. *)
  Definition sub_stmt (t : tree) : Prop :=
    forall base h inh anc aidx mf mt pidx r a0 KR stk,
      placed (nodes P) base (map fst (compG t base h inh anc mf mt pidx r)) ->
      0 <= h ->
      (base + Z.of_nat (gsize t) = L -> h = 0) ->
      RootInv (base + Z.of_nat (gsize t)) h mf mt a0 ->
      AncInv (base + Z.of_nat (gsize t)) anc aidx ->
      (fany mf = true -> inh = false -> exists rest, aidx = a0 :: rest) ->
      lenZ stk = h ->
      (forall v f, (need (base + Z.of_nat (gsize t)) <= f)%nat ->
                   R (base + Z.of_nat (gsize t)) (afterD (run f) (base + Z.of_nat (gsize t)) mf (fin mt) v stk) (KR v)) ->
      forall f, (need base <= f)%nat -> R base (run f base stk) (bindT (sem t) KR).

  Definition at_node := at_step P ev R HR run (run_event fetch custom P).

  Lemma step_root lo i mf mt KR stk v f : lo <= i + 1 -> i < L -> (need i <= S f)%nat ->
    (forall v f, (need (i + 1) <= f)%nat -> R (i + 1) (afterD (run f) (i + 1) mf (fin mt) v stk) (KR v)) ->
    R lo (afterD (run f) (i + 1) mf (fin mt) v stk) (KR v).
  Proof.
    intros Hlo Hi Hf Hroot. apply (R_mono _ (i + 1)); [exact Hlo|]. apply Hroot. apply (need_step _ _ _ _ Hf); lia.
  Qed.

  Lemma leaf_ok t : is_leaf t = true -> sub_stmt t.
  Proof.
    intros Hl base h inh anc aidx mf mt pidx r a0 KR stk Hpl Hh HE RI HA Hai Hs Hroot f Hf.
    pose proof (ez_range ev) as He.
    assert (Hsz : base + Z.of_nat (gsize t) = base + ez + 1) by (destruct t; try discriminate; unfold CompG.ez; cbn [CompG.gsize]; arith).
    rewrite Hsz in *.
    destruct t as [v|n k| |]; try discriminate; cbn [CompG.compG] in Hpl;
      rewrite <- (app_nil_r (emit _ _ _ _)) in Hpl; apply emit_placed in Hpl; destruct Hpl as (G0 & G1 & _);
      pose proof (nthZ_range _ _ _ G1) as Rg;
      apply (at_node f base _ stk _ G0 G1 Hf); intros f' Hf'.
    - rewrite (run_const _ _ _ _ _ _ v _ G1 eq_refl), mk_flags, mk_fin by reflexivity.
      cbn [Tree.sem bindT map]. rewrite preM_nil. apply step_root; try assumption; arith.
    - rewrite (run_var _ _ _ _ _ _ n k _ G1 eq_refl), mk_flags, mk_fin by reflexivity.
      cbn [Tree.sem]. destruct (fetch n k) as [v|e]; cbn [bindT]; [|apply (R_refl _ [EGet n k])].
      apply (R_pre _ [EGet n k]). apply step_root; try assumption; arith.
  Qed.

  Lemma fast_leaf_val t : is_leaf t = true -> forall cnt fl tg h r,
    fast_leaf fetch (mk lastI (leaf_kind t) cnt fl tg h r) =
      (map e2o (fst (leaf_val fetch t)), snd (leaf_val fetch t)).
  Proof. destruct t; try discriminate; reflexivity. Qed.

  Lemma fast_ok name a b : fast_shape true [a; b] = true -> sub_stmt (TOp name true [a; b]).
  Proof.
    intros Hfs base h inh anc aidx mf mt pidx r a0 KR stk Hpl Hh HE RI HA Hai Hs Hroot f Hf.
    pose proof (ez_range ev) as He.
    destruct (fast_shape_inv _ _ Hfs) as (a' & b' & E & Ha & Hb & _). inversion E; subst a' b'. clear E.
    rewrite compG_fast_unfold in Hpl by exact Hfs. cbv zeta in Hpl.
    apply emit_placed in Hpl. destruct Hpl as (G0 & G1 & Hpl). cbn [map fst] in Hpl.
    apply placed_cons in Hpl. destruct Hpl as [G2 Hpl]. apply placed_cons in Hpl. destruct Hpl as [G3 _].
    replace (base + ez + 1 + 1) with (base + ez + 2) in G3 by arith.
    assert (Hsz : base + Z.of_nat (gsize (TOp name true [a; b])) = base + ez + 2 + 1) by (rewrite gsize_fast by exact Hfs; unfold CompG.ez; arith).
    rewrite Hsz in *.
    apply (at_node f base _ stk _ G0 G1 Hf); intros f' Hf'.
    pose proof (nthZ_range _ _ _ G3) as R3.
    rewrite (run_fast _ _ _ _ _ _ name _ _ _ G1 eq_refl G2 G3), !fast_leaf_val by assumption.
    rewrite sem_fast_eq by exact Hfs. unfold sem_fast.
    destruct (leaf_val fetch a) as [tr1 [va|e1]]; cbn [fst snd]; [|apply R_refl].
    destruct (leaf_val fetch b) as [tr2 [vb|e2]]; cbn [fst snd]; [|rewrite <- map_app; apply R_refl].
    cbv zeta. change [OCall name true [va; vb] ?r] with (map e2o [ECall name true [va; vb] r]).
    rewrite <- !map_app.
    destruct (apply_op custom name [va; vb]) as [v|e]; cbn [bindT].
    - apply R_pre. rewrite mk_flags, mk_fin by reflexivity.
      replace (base + ez + 3) with (base + ez + 2 + 1) by arith. apply step_root; try assumption; try arith.
      apply (need_le _ _ _ _ Hf'). arith.
    - unfold preM. cbn [fst snd]. rewrite app_nil_r. apply R_refl.
  Qed.

  Lemma operand_result_flags k lastc b :
    operand_result k lastc (VBool b) = fhas (child_flags k lastc) b.
  Proof. destruct k as [[]|], lastc, b; reflexivity. Qed.

  (* the operands of an operator whose node sits at ridx, from the operand behind `acc` on *)
  Lemma args_ok name n ridx h_p pn mf_p mt_p a0p KR_p stk0 (inh : bool) anc aidx :
    (ev = true -> nthZ (nodes P) (ridx - ez) = Some (event_node ridx pn)) ->
    at_parent P ridx h_p pn mf_p mt_p a0p stk0 -> kind pn = KOp name -> childCnt pn = n ->
    (forall v f, (need (ridx + 1) <= f)%nat -> R (ridx + 1) (afterD (run f) (ridx + 1) mf_p (fin mt_p) v stk0) (KR_p v)) ->
    AncInv (ridx + 1) anc aidx ->
    (fany mf_p = true -> inh = false -> exists rest, aidx = a0p :: rest) ->
    let anc' := if inh then [] else (mf_p, mt_p) :: anc in
    forall cs, Forall sub_stmt cs ->
    forall acc b f,
      placed (nodes P) b (map fst (compG_args ev lastI (op_kind name) n ridx anc' cs b (h_p + lenZ acc))) ->
      b + Z.of_nat (gsizes ev cs) = ridx - ez -> 0 <= b ->
      lenZ acc + lenZ cs = n ->
      (need b <= f)%nat ->
      R b (run f b (stk0 ++ rev acc)) (bindT (sem_args name cs acc) KR_p).
  Proof.
    intros Gev N Kp Cp Hroot HA Hai anc' cs HF. pose proof N as [Gp NFp STp OSp Hh Hs0 RIp EndH].
    pose proof (nthZ_range _ _ _ Gp) as Rp. pose proof (ez_range ev) as He.
    induction HF as [|c cs' Hc _ IH]; intros acc b f Hpl Hb Hb0 Hlen Hf.
    - (* the operator node itself, behind its event node *)
      cbn [gsizes fold_right] in Hb. replace b with (ridx - ez) in * by arith. cbn [Tree.sem_args].
      apply (at_node f (ridx - ez) pn); replace (ridx - ez + ez) with ridx by arith; [exact Gev|exact Gp|exact Hf|]; intros f' Hf'.
      rewrite (run_op _ _ _ _ _ _ name _ _ Gp Kp) by (change (lenZ (@nil tree)) with 0 in Hlen; arith).
      cbv zeta. destruct (apply_op custom name (rev acc)) as [v|e]; cbn [bindT]; [|apply (R_refl _ [ECall name false (rev acc) (Err e)])].
      apply (R_pre _ [ECall name false (rev acc) (Ok v)]). rewrite NFp, STp.
      apply step_root; try assumption; arith.
    - cbn [compG_args] in Hpl. cbv zeta in Hpl. rewrite map_app in Hpl.
      cbn [gsizes fold_right] in Hb. fold (gsizes ev cs') in Hb.
      apply placed_app in Hpl. destruct Hpl as [Hpc Hprest].
      unfold lenZ in Hprest at 1. rewrite map_length, compG_length in Hprest.
      set (lastc := match cs' with [] => can_be_last c && (2 <=? n) | _ :: _ => false end) in *.
      set (fl := child_flags (op_kind name) lastc) in *.
      set (tg := if fany fl then climb fl anc' ridx else groot ev c b) in *.
      pose proof (gsize_pos ev c) as Hsz.
      rewrite bindT_args_cons. cbv zeta.
      assert (Elast : match cs' with [] => can_be_last c && (2 <=? lenZ (c :: cs') + lenZ acc) | _ :: _ => false end = lastc).
      { unfold lastc. destruct cs'; [|reflexivity]. f_equal. f_equal. arith. }
      rewrite Elast.
      destruct (child_jump_eq fetch custom P SA ridx h_p pn mf_p mt_p a0p stk0 N
                  (ridx + 1) anc aidx inh fl (b + Z.of_nat (gsize c)) (h_p + lenZ acc) HA Hai ltac:(arith) ltac:(arith)
                  ltac:(pose proof (lenZ_nonneg acc); arith)) as [RIc Hjump].
      fold anc' in RIc, Hjump.
      assert (RIc' : RootInv (b + Z.of_nat (gsize c)) (h_p + lenZ acc) fl tg ridx).
      { unfold tg. destruct (fany fl) eqn:Hfl; [exact RIc|].
        intros bb Hbb. rewrite (fhas_fany _ _ Hbb) in Hfl. discriminate. }
      assert (Hlenstk : lenZ (stk0 ++ rev acc) = h_p + lenZ acc).
      { rewrite lenZ_app. unfold lenZ. rewrite rev_length. unfold lenZ in Hs0. arith. }
      eapply (Hc b (h_p + lenZ acc) false anc' (ridx :: aidx) fl tg ridx (op_kind name) ridx _ (stk0 ++ rev acc) Hpc).
      + pose proof (lenZ_nonneg acc). arith.
      + intros E. arith.
      + exact RIc'.
      + apply (anc_child P ridx h_p pn mf_p mt_p a0p stk0 N (ridx + 1)); try assumption; arith.
      + intros _ _. eauto.
      + exact Hlenstk.
      + (* what the operand's value does *)
        intros v f0 Hf0.
        assert (NEXT : R (b + Z.of_nat (gsize c)) (store_next P (run f0) (b + Z.of_nat (gsize c)) v (stk0 ++ rev acc))
                         (bindT (sem_args name cs' (v :: acc)) KR_p)).
        { unfold store_next, push.
          assert (Hal : h_p + lenZ acc < alloc P).
          { (* the operand's slot is written by the first node of its code *)
            destruct (compG_first_placed _ _ _ _ _ _ _ _ _ _ _ _ Hpc) as (nd0 & G & Ho). apply SA in G. arith. }
          rewrite Hlenstk. replace (h_p + lenZ acc <? alloc P) with true by arith.
          replace ((stk0 ++ rev acc) ++ [v]) with (stk0 ++ rev (v :: acc)) by (cbn [rev]; now rewrite app_assoc).
          apply IH.
          - rewrite lenZ_cons. replace (h_p + (lenZ acc + 1)) with (h_p + lenZ acc + 1) by arith. exact Hprest.
          - arith.
          - arith.
          - rewrite lenZ_cons in *. rewrite lenZ_cons in Hlen. arith.
          - exact Hf0. }
        unfold EvalDefs.afterD. destruct v as [z|bb|s|li|ls|si|ss'| | |o];
          try (replace (operand_result (op_kind name) lastc _) with false by (destruct (op_kind name) as [[]|]; reflexivity); exact NEXT).
        rewrite operand_result_flags. fold fl. destruct (fhas fl bb) eqn:Hbb; [|exact NEXT].
        (* the operand decides: jumping to its target is what the operator's own continuation does with bb *)
        pose proof (fhas_fany _ _ Hbb) as Hfl.
        assert (Hn : (need (ridx + 1) <= f0)%nat) by (apply (need_le _ _ _ _ Hf0); arith).
        unfold tg. rewrite Hfl, (Hjump bb Hbb f0 (rev acc) Hn).
        apply (R_mono _ (ridx + 1)); [arith|]. apply Hroot. exact Hn.
      + exact Hf.
  Qed.

  Lemma op_ok name fast cs : fast_shape fast cs = false -> Forall sub_stmt cs -> sub_stmt (TOp name fast cs).
  Proof.
    intros Hfs IH base h inh anc aidx mf mt pidx r a0 KR stk Hpl Hh HE RI HA Hai Hs Hroot f Hf.
    pose proof (ez_range ev) as He.
    rewrite sem_op by exact Hfs. rewrite compG_op_unfold in Hpl by exact Hfs. rewrite map_app in Hpl.
    set (ridx := base + Z.of_nat (gsize (TOp name fast cs)) - 1) in *.
    assert (Hsz : Z.of_nat (gsize (TOp name fast cs)) = Z.of_nat (gsizes ev cs) + ez + 1)
      by (rewrite gsize_op by exact Hfs; unfold CompG.ez; arith).
    pose proof (placed_app _ _ _ _ Hpl) as [Hpa Hpr].
    unfold lenZ in Hpr at 1. rewrite map_length, compG_args_length in Hpr.
    rewrite <- (app_nil_r (emit _ _ _ _)) in Hpr. apply emit_placed in Hpr. destruct Hpr as (Gev & Gr & _).
    replace (base + Z.of_nat (gsizes ev cs)) with (ridx - ez) in Gev, Gr by (unfold ridx; arith).
    replace (ridx - ez + ez) with ridx in Gr by arith.
    replace (base + Z.of_nat (gsize (TOp name fast cs))) with (ridx + 1) in * by (unfold ridx; arith).
    pose proof (args_ok name (lenZ cs) ridx h (mk lastI (KOp name) (lenZ cs) mf mt h r) mf mt a0 KR stk inh anc aidx
                  Gev (Build_at_parent P _ _ _ _ _ _ _ Gr (mk_flags _ _ _ _ _ _) (mk_fin (KOp name) _ _ _ _ _ eq_refl) eq_refl Hh Hs RI HE)
                  eq_refl eq_refl Hroot HA Hai cs IH [] base f) as A.
    cbn [rev] in A. rewrite app_nil_r in A. apply A.
    - change (lenZ (@nil value)) with 0. rewrite Z.add_0_r. exact Hpa.
    - unfold ridx. arith.
    - apply placed_bound in Hpl. arith.
    - reflexivity.
    - exact Hf.
  Qed.

  Definition cond_cont (t f : tree) (KR : value -> list obs * mres) (v : value) : list obs * mres :=
    match v with
    | VBool true => bindT (sem t) KR
    | VBool false => bindT (sem f) KR
    | _ => ([], MErr ECondNotBool)
    end.

  Lemma bindT_if c t f KR : bindT (sem (TIf c t f)) KR = bindT (sem c) (cond_cont t f KR).
  Proof.
    cbn [Tree.sem]. destruct (sem c) as [tr [v|e]]; [|reflexivity].
    destruct v as [z|[]|s|li|ls|si|ss'| | |o]; cbn [bindT cond_cont]; try (unfold preM; cbn; rewrite app_nil_r; reflexivity);
      rewrite bindT_pre; reflexivity.
  Qed.

  Lemma fany_false_has mf b : fany mf = false -> fhas mf b = false.
  Proof. destruct mf as [[] []], b; cbn; congruence. Qed.

  (* the decoration the branches of an `if` inherit *)
  Lemma dec_inherit nx nx' h mf mt a0 ifidx X :
    RootInv nx h mf mt a0 -> nx' <= nx -> ifidx < nx ->
    let inherit := negb (mt =? ifidx) in
    let mf' := if inherit then mf else fnone in
    let mt' := if inherit then mt else X in
    RootInv nx' h mf' mt' a0 /\
    (forall k next v stk, afterD k next mf' (fin mt') v stk = afterD k next mf (fin mt) v stk).
  Proof.
    intros RI Hn Hi inherit mf' mt'. destruct (fany mf) eqn:Hfa.
    - assert (Hb : exists b, fhas mf b = true) by (destruct mf as [[] []]; cbn in Hfa; try discriminate; [exists false|exists false|exists true]; reflexivity).
      destruct Hb as [b Hb]. destruct (RI b Hb) as ((H1 & H2) & _).
      assert (Ei : inherit = true) by (unfold inherit; replace (mt =? ifidx) with false by arith; reflexivity).
      unfold mf', mt'. rewrite Ei. split; [|reflexivity].
      intros b' Hb'. destruct (RI b' Hb') as ((H1' & H2') & H3). split; [arith|exact H3].
    - assert (Hfa' : fany mf' = false) by (unfold mf'; destruct inherit; [exact Hfa|reflexivity]).
      split.
      + intros b Hb. rewrite (fany_false_has _ _ Hfa') in Hb. discriminate.
      + intros. apply afterD_unflagged; assumption.
  Qed.

  Lemma if_ok c t f : sub_stmt c -> sub_stmt t -> sub_stmt f -> sub_stmt (TIf c t f).
  Proof.
    intros IHc IHt IHf base h inh anc aidx mf mt pidx r a0 KR stk Hpl Hh HE RI HA Hai Hs Hroot fu Hfu.
    pose proof (ez_range ev) as He.
    cbn [CompG.compG] in Hpl. cbv zeta in Hpl.
    set (ifidx := base + Z.of_nat (gsize c) + ez) in *.
    set (tb := ifidx + 1) in *.
    set (fiidx := tb + Z.of_nat (gsize t) + ez) in *.
    set (fb := fiidx + 1) in *.
    set (endidx := fb + Z.of_nat (gsize f) - 1) in *.
    assert (Hnext : base + Z.of_nat (gsize (TIf c t f)) = fb + Z.of_nat (gsize f)).
    { cbn [CompG.gsize]. unfold fb, fiidx, tb, ifidx, CompG.ez. arith. }
    rewrite Hnext in *.
    rewrite map_app in Hpl.
    apply placed_app in Hpl. destruct Hpl as [Hpc Hpl]. unfold lenZ in Hpl at 1. rewrite map_length, compG_length in Hpl.
    apply emit_placed in Hpl. destruct Hpl as (Gife & Gif & Hpl). fold ifidx tb in Gife, Gif, Hpl.
    rewrite map_app in Hpl.
    apply placed_app in Hpl. destruct Hpl as [Hpt Hpl]. unfold lenZ in Hpl at 1. rewrite map_length, compG_length in Hpl.
    apply emit_placed in Hpl. destruct Hpl as (Gfie & Gfi & Hpf). fold fiidx fb in Gfie, Gfi, Hpf.
    pose proof (nthZ_range _ _ _ Gif) as Rif. pose proof (nthZ_range _ _ _ Gfi) as Rfi.
    pose proof (gsize_pos ev c). pose proof (gsize_pos ev t). pose proof (gsize_pos ev f).
    pose proof (placed_bound _ _ _ Hpc) as [Hb0 _].
    destruct (dec_inherit (fb + Z.of_nat (gsize f)) (tb + Z.of_nat (gsize t)) h mf mt a0 ifidx (groot ev t tb) RI ltac:(unfold fb, fiidx; arith) ltac:(unfold fb, fiidx, tb; arith))
      as [RIt Eat].
    destruct (dec_inherit (fb + Z.of_nat (gsize f)) (fb + Z.of_nat (gsize f)) h mf mt a0 ifidx (groot ev f fb) RI ltac:(arith) ltac:(unfold fb, fiidx, tb; arith))
      as [RIf Eaf].
    cbv zeta in RIt, Eat, RIf, Eaf.
    set (inherit := negb (mt =? ifidx)) in *.
    set (mf' := if inherit then mf else fnone) in *.
    (* pushing onto stk is within the allocation: the fi node writes slot h *)
    assert (Hal : lenZ stk < alloc P) by (apply SA in Gfi; cbn [osTop mk] in Gfi; arith).
    rewrite bindT_if.
    eapply (IHc base h false [] [] fnone (groot ev c base) ifidx None 0 _ stk Hpc Hh).
    - arith.
    - intros b Hb. destruct b; discriminate.
    - exact I.
    - intros Hfa. discriminate.
    - exact Hs.
    - (* the if node *)
      intros v f0 Hf0.
      rewrite afterD_store by exact Hal.
      apply (at_node f0 _ _ _ _ Gife Gif Hf0); fold ifidx; intros f1 Hf1.
      rewrite (run_if _ _ _ _ _ _ _ _ Gif eq_refl) by (cbn [osTop mk]; arith).
      assert (Hneed1 : (need (ifidx + 1) <= f1)%nat) by (apply (need_step _ _ _ _ Hf1); arith).
      destruct v as [z|[]|s|li|ls|si|ss'| | |o]; cbn [cond_cont]; try apply (R_refl _ []).
      + (* condition true: the true branch, then fi jumps over the false branch *)
        fold tb. apply (R_mono _ tb); [unfold tb; arith|].
        eapply (IHt tb h true [] [] mf' _ ifidx r a0 KR stk Hpt Hh).
        * arith.
        * exact RIt.
        * exact I.
        * intros _ Hc. discriminate.
        * exact Hs.
        * intros v f2 Hf2. rewrite Eat.
          assert (Hn2 : (need (fb + Z.of_nat (gsize f)) <= f2)%nat) by (apply (need_le _ _ _ _ Hf2); unfold fb, fiidx; arith).
          (* a value that does not jump is stored, then fi jumps behind the false branch *)
          assert (NEXT : (forall f3, afterD (run f3) (fb + Z.of_nat (gsize f)) mf (fin mt) v stk = store_next P (run f3) (fb + Z.of_nat (gsize f)) v stk) ->
                         R (tb + Z.of_nat (gsize t)) (store_next P (run f2) (tb + Z.of_nat (gsize t)) v stk) (KR v)).
          { intros Eu. unfold store_next at 1, push. replace (lenZ stk <? alloc P) with true by arith.
            apply (at_node f2 _ _ _ _ Gfie Gfi Hf2); fold fiidx; intros f3 Hf3.
            rewrite (run_fi _ _ _ _ _ _ _ _ Gfi eq_refl) by (cbn [osTop mk]; arith).
            cbn [scIdx mk is_cond_kind]. unfold endidx. replace (fb + Z.of_nat (gsize f) - 1 + 1) with (fb + Z.of_nat (gsize f)) by arith.
            apply (R_mono _ (fb + Z.of_nat (gsize f))); [unfold fb; arith|].
            assert (Hn3 : (need (fb + Z.of_nat (gsize f)) <= f3)%nat) by (apply (need_step _ _ _ _ Hf3); unfold fb; arith).
            specialize (Hroot v f3 Hn3). rewrite Eu in Hroot. unfold store_next, push in Hroot.
            replace (lenZ stk <? alloc P) with true in Hroot by arith. exact Hroot. }
          unfold EvalDefs.afterD. destruct v as [z|bb|s|li|ls|si|ss'| | |o]; try (apply NEXT; reflexivity).
          destruct (fhas mf bb) eqn:Hbb; [|apply NEXT; intros; unfold EvalDefs.afterD; rewrite Hbb; reflexivity].
          apply (R_mono _ (fb + Z.of_nat (gsize f))); [unfold fb, fiidx; arith|].
          specialize (Hroot (VBool bb) f2 Hn2). unfold EvalDefs.afterD in Hroot. rewrite Hbb in Hroot. exact Hroot.
        * exact Hneed1.
      + (* condition false: jump behind fi, the false branch *)
        cbn [scIdx mk is_cond_kind]. fold fb. apply (R_mono _ fb); [unfold fb, fiidx, tb; arith|].
        eapply (IHf fb h true [] [] mf' _ ifidx r a0 KR stk Hpf Hh).
        * exact HE.
        * exact RIf.
        * exact I.
        * intros _ Hc. discriminate.
        * exact Hs.
        * intros v f2 Hf2. rewrite Eaf. apply Hroot. exact Hf2.
        * apply (need_le _ _ _ _ Hneed1). unfold fb, fiidx, tb. arith.
    - exact Hfu.
  Qed.

  Theorem sub_ok : forall t, sub_stmt t.
  Proof. apply tree_shape_ind; [apply leaf_ok|apply fast_ok|apply op_ok|apply if_ok]. Qed.
End M.

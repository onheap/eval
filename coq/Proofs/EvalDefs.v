(* EvalDefs.v — vocabulary for the proof that run ∘ compile = sem: landings as a fuel-free relation,
   decoration-indexed continuation `afterD`, binding of semantic results to machine continuations. *)
Require Import Base Tree Flat Run CompFacts ListFacts.
From Coq Require Import ZifyBool.
Open Scope Z_scope.
Open Scope list_scope.

Definition e2o (e : effect) : obs :=
  match e with EGet n k => OGet n k | ECall n f a r => OCall n f a r end.

Definition bindT (x : list effect * res value) (K : value -> list obs * mres) : list obs * mres :=
  match x with
  | (tr, Ok v) => preM (map e2o tr) (K v)
  | (tr, Err e) => (map e2o tr, MErr e)
  end.

Lemma preM_nil {A} (x : list obs * A) : preM [] x = x.
Proof. destruct x; reflexivity. Qed.
Lemma preM_app {A} a b (x : list obs * A) : preM a (preM b x) = preM (a ++ b) x.
Proof. destruct x; unfold preM; cbn. now rewrite app_assoc. Qed.

Lemma bindT_pre tr x K : bindT (pre tr x) K = preM (map e2o tr) (bindT x K).
Proof.
  destruct x as [tr2 [v|e]]; unfold pre, bindT; cbn [fst snd]; rewrite map_app.
  - rewrite preM_app. reflexivity.
  - unfold preM. reflexivity.
Qed.

(* `R lo x y`: the outcome x of the machine started at index lo is what the reference outcome y describes. The
   inductions over the compiler's recursion (EvalCorrect.v, TryCorrect.v) conclude with such a relation instead of
   an equation, so that one run serves the plain program (R is equality) and the event-mode program (equality up
   to LOOP events, whose positions increase: LoopOrder.seenE). What they need of R: fetches and operator
   applications pass on both sides, a finished outcome without LOOP events describes itself, the LOOP event of a
   node behind lo may be dropped (there are none in plain mode), and lo may be lowered. *)
Record describes (ev : bool) (R : Z -> list obs * mres -> list obs * mres -> Prop) : Prop := {
  d_pre : forall lo tr x y, R lo x y -> R lo (preM (map e2o tr) x) (preM (map e2o tr) y);
  d_refl : forall lo tr r, R lo (map e2o tr, r) (map e2o tr, r);
  d_loop : ev = true -> forall lo p k s x y, lo < p -> R p x y -> R lo (preM [OLoop p k s] x) y;
  d_mono : forall lo lo' x y, lo <= lo' -> R lo' x y -> R lo x y
}.

(* (the LOOP law asks nothing of the plain program) *)
Lemma describes_eq : describes false (fun _ x y => x = y).
Proof. split; congruence. Qed.

Lemma firstnZ_app {A} (o : Z) (s x : list A) : o <= lenZ s -> firstnZ o (s ++ x) = firstnZ o s.
Proof.
  intros H. unfold firstnZ, lenZ in *. rewrite firstn_app.
  replace (Z.to_nat o - length s)%nat with 0%nat by lia. cbn. apply app_nil_r.
Qed.
Lemma firstnZ_all {A} (s : list A) : firstnZ (lenZ s) s = s.
Proof. unfold firstnZ, lenZ. rewrite Nat2Z.id. apply firstn_all. Qed.
Lemma firstnZ_app_all {A} (s x : list A) : firstnZ (lenZ s) (s ++ x) = s.
Proof. rewrite firstnZ_app by lia. apply firstnZ_all. Qed.

Section M.
  Variable fetch : str -> Z -> res value.
  Variable custom : str -> list value -> res value.
  Variable P : prog.

  Notation L := (lenZ (nodes P)).
  Notation getn := (getn P).
  Notation run := (run fetch custom P).

  (* `mk` stores a target equal to the last index as -1 ("return"): the compiler is run with `last := lastI`, and
     `fin` is that encoding *)
  Definition lastI : Z := L - 1.
  Definition fin (x : Z) : Z := if x =? lastI then -1 else x.
  (* fuel that suffices from index i: one unit per remaining index and one for the return behind the last node *)
  Definition need (i : Z) : nat := S (Z.to_nat (L - i)).

  Lemma need_pos i : ~ (need i <= 0)%nat.
  Proof. unfold need. lia. Qed.
  Lemma need_le i j f : (need i <= f)%nat -> i <= j -> (need j <= f)%nat.
  Proof. unfold need. lia. Qed.
  Lemma need_step i j f : (need i <= S f)%nat -> i < L -> i < j -> (need j <= f)%nat.
  Proof. unfold need. lia. Qed.

  (* the `match chain … with` of `Run.after`, as a function of the landing *)
  Definition landR (k : Z -> list value -> list obs * mres) (l : landing) (v : value) (stk : list value)
    : list obs * mres :=
    match l with
    | LRet => ([], MVal v)
    | LStuck => ([], MPanic 11)
    | LAt j nd' =>
      if (osTop nd' <? 0) || (lenZ stk <? osTop nd') then ([], MPanic 12) else
      match push P (firstnZ (osTop nd') stk) v with Some s => k (j + 1) s | None => ([], MPanic 10) end
    end.

  Definition store_next (k : Z -> list value -> list obs * mres) (next : Z) (v : value) (stk : list value) :=
    match push P stk v with Some s => k next s | None => ([], MPanic 10) end.

  (* `after`, indexed by the decoration (flags, scIdx) instead of the node that carries it *)
  Definition afterD (k : Z -> list value -> list obs * mres) (next : Z) (mf : flags) (sc : Z)
                    (v : value) (stk : list value) : list obs * mres :=
    match v with
    | VBool b => if fhas mf b then landR k (chain P (length (nodes P)) sc b) v stk else store_next k next v stk
    | _ => store_next k next v stk
    end.

  Definition nflags (nd : node) : flags := (scF nd, scT nd).

  Lemma matches_fhas nd b : matches nd b = fhas (nflags nd) b.
  Proof. destruct b; reflexivity. Qed.

  Lemma fhas_fany mf b : fhas mf b = true -> fany mf = true.
  Proof. destruct mf as [[] []], b; cbn; congruence. Qed.

  Lemma after_afterD k next nd v stk : after P k next nd v stk = afterD k next (nflags nd) (scIdx nd) v stk.
  Proof.
    unfold after, afterD, store_next, landR. destruct v; reflexivity.
  Qed.

  Lemma mk_fin k cnt mf mt h r : is_cond_kind k = false -> scIdx (mk lastI k cnt mf mt h r) = fin mt.
  Proof. intros H. unfold mk, fin. cbn [scIdx]. rewrite H. reflexivity. Qed.
  Lemma mk_flags k cnt mf mt h r : nflags (mk lastI k cnt mf mt h r) = mf.
  Proof. destruct mf; reflexivity. Qed.

  Lemma afterD_unflagged k next mf mf' sc sc' v stk : fany mf = false -> fany mf' = false ->
    afterD k next mf sc v stk = afterD k next mf' sc' v stk.
  Proof.
    intros H H'. unfold afterD. destruct v; try reflexivity.
    destruct mf as [[] []], mf' as [[] []], b; cbn in *; try discriminate; reflexivity.
  Qed.

  Lemma afterD_store k next v stk sc : lenZ stk < alloc P -> afterD k next fnone sc v stk = k next (stk ++ [v]).
  Proof.
    intros H. unfold afterD, store_next, push. replace (lenZ stk <? alloc P) with true by lia.
    destruct v; try reflexivity. destruct b; reflexivity.
  Qed.

  (* One step of the loop at a node that exists, per kind of node, with the stack already split into what stays and
     what the node consumes: the proofs of EvalInv / EvalCorrect / EvalTop do not look into `run` again. *)

  Lemma psize_lt i nd : getn i = Some nd -> (psize P <=? i) = false.
  Proof. intros G. apply nthZ_range in G. unfold psize. lia. Qed.

  Lemma run_end f i stk : L <= i -> run (S f) i stk = ([], match stk with v :: _ => MVal v | [] => MPanic 1 end).
  Proof. intros H. cbn [Run.run]. unfold psize. replace (L <=? i) with true by lia. reflexivity. Qed.

  Lemma run_const f i nd v stk : getn i = Some nd -> kind nd = KConst v ->
    run (S f) i stk = afterD (run f) (i + 1) (nflags nd) (scIdx nd) v stk.
  Proof. intros G K. cbn [Run.run]. rewrite (psize_lt _ _ G), G, K. apply after_afterD. Qed.

  Lemma run_var f i nd n k stk : getn i = Some nd -> kind nd = KVar n k ->
    run (S f) i stk = preM [OGet n k] match fetch n k with
                                      | Err e => ([], MErr e)
                                      | Ok v => afterD (run f) (i + 1) (nflags nd) (scIdx nd) v stk
                                      end.
  Proof.
    intros G K. cbn [Run.run]. rewrite (psize_lt _ _ G), G, K. destruct (fetch n k); [rewrite after_afterD|]; reflexivity.
  Qed.

  Lemma run_fast f i nd name a b stk : getn i = Some nd -> kind nd = KFast name ->
    getn (i + 1) = Some a -> getn (i + 2) = Some b ->
    run (S f) i stk =
      match fast_leaf fetch a with
      | (t1, Err e) => (t1, MErr e)
      | (t1, Ok va) =>
        match fast_leaf fetch b with
        | (t2, Err e) => (t1 ++ t2, MErr e)
        | (t2, Ok vb) =>
          let r := apply_op custom name [va; vb] in
          preM (t1 ++ t2 ++ [OCall name true [va; vb] r])
            match r with Err e => ([], MErr e) | Ok v => afterD (run f) (i + 3) (nflags nd) (scIdx nd) v stk end
        end
      end.
  Proof.
    intros G K Ga Gb. cbn [Run.run]. rewrite (psize_lt _ _ G), G, K, Ga, Gb.
    destruct (fast_leaf fetch a) as [t1 [va|e1]]; [|reflexivity]. destruct (fast_leaf fetch b) as [t2 [vb|e2]]; [|reflexivity].
    cbv zeta. unfold apply_named. destruct (apply_op custom name [va; vb]); [rewrite after_afterD|]; reflexivity.
  Qed.

  Lemma run_op f i nd name stk acc : getn i = Some nd -> kind nd = KOp name -> childCnt nd = lenZ acc ->
    run (S f) i (stk ++ rev acc) =
      let r := apply_op custom name (rev acc) in
      preM [OCall name false (rev acc) r]
        match r with Err e => ([], MErr e) | Ok v => afterD (run f) (i + 1) (nflags nd) (scIdx nd) v stk end.
  Proof.
    intros G K C. cbn [Run.run]. rewrite (psize_lt _ _ G), G, K, C, lenZ_app, lenZ_rev.
    pose proof (lenZ_nonneg acc). pose proof (lenZ_nonneg stk).
    replace ((lenZ acc <? 0) || (lenZ stk + lenZ acc <? lenZ acc)) with false by lia.
    replace (Z.to_nat (lenZ stk + lenZ acc - lenZ acc)) with (length stk) by (unfold lenZ; lia).
    rewrite skipn_app, skipn_all, Nat.sub_diag, firstn_app, firstn_all, Nat.sub_diag. cbn [skipn firstn app].
    rewrite app_nil_r. cbv zeta. unfold apply_named.
    destruct (apply_op custom name (rev acc)); [rewrite after_afterD|]; reflexivity.
  Qed.

  Lemma run_if f i nd c stk : getn i = Some nd -> kind nd = KIf -> osTop nd = lenZ stk - 1 ->
    run (S f) i (stk ++ [c]) =
      match c with
      | VBool true => run f (i + 1) stk
      | VBool false => run f (scIdx nd + 1) stk
      | _ => ([], MErr ECondNotBool)
      end.
  Proof.
    intros G K O. cbn [Run.run]. rewrite (psize_lt _ _ G), G, K, rev_app_distr. cbn [rev app]. rewrite rev_involutive.
    destruct c as [z|[]|s|li|ls|si|ss'| | |o]; try reflexivity.
    rewrite O, lenZ_rev. pose proof (lenZ_nonneg stk).
    replace ((lenZ stk - 1 + 1 <? 0) || (lenZ stk <? lenZ stk - 1 + 1)) with false by lia.
    replace (lenZ stk - 1 + 1) with (lenZ stk) by lia. rewrite firstnZ_all. reflexivity.
  Qed.

  Lemma run_fi f i nd v stk : getn i = Some nd -> kind nd = KFi -> osTop nd = lenZ stk ->
    run (S f) i (stk ++ [v]) = run f (scIdx nd + 1) (stk ++ [v]).
  Proof.
    intros G K O. cbn [Run.run]. rewrite (psize_lt _ _ G), G, K, O.
    destruct (stk ++ [v]) eqn:E; [destruct stk; discriminate|]. rewrite <- E.
    assert (Hl : lenZ (stk ++ [v]) = lenZ stk + 1) by (rewrite lenZ_app; reflexivity).
    pose proof (lenZ_nonneg stk). rewrite Hl.
    replace ((lenZ stk + 1 <? 0) || (lenZ stk + 1 <? lenZ stk + 1)) with false by lia.
    rewrite <- Hl, firstnZ_all. reflexivity.
  Qed.

  Lemma run_event f i nd pos of stk : getn i = Some nd -> kind nd = KEvent pos of ->
    run (S f) i stk = preM [OLoop pos of stk] (run f (i + 1) stk).
  Proof. intros G K. cbn [Run.run]. rewrite (psize_lt _ _ G), G, K. reflexivity. Qed.

  (* value b, arriving as the result of node j, lands at l: fuel-free, forward steps only *)
  Inductive lands : Z -> bool -> landing -> Prop :=
    | lands_ret b : lands (-1) b LRet
    | lands_at j nd b : getn j = Some nd -> matches nd b = false -> lands j b (LAt j nd)
    | lands_step j nd b l : getn j = Some nd -> matches nd b = true ->
        (scIdx nd = -1 \/ j < scIdx nd) -> lands (scIdx nd) b l -> lands j b l.

  Definition cbound (j : Z) : nat := if j =? -1 then 1%nat else S (Z.to_nat (L - j)).

  Lemma lands_chain j b l : lands j b l -> forall fuel, (cbound j <= fuel)%nat -> chain P fuel j b = l.
  Proof.
    induction 1 as [b | j nd b G M | j nd b l G M Hf Hl IH]; intros fuel Hfuel.
    - destruct fuel; [cbn in Hfuel; lia|]. reflexivity.
    - destruct fuel; [unfold cbound in Hfuel; destruct (j =? -1); lia|].
      cbn [chain]. pose proof (nthZ_range _ _ _ G). replace (j =? -1) with false by lia.
      rewrite G, M. reflexivity.
    - pose proof (nthZ_range _ _ _ G) as R.
      destruct fuel; [unfold cbound in Hfuel; destruct (j =? -1); lia|].
      cbn [chain]. replace (j =? -1) with false by lia. rewrite G, M.
      apply IH. unfold cbound in *. replace (j =? -1) with false in Hfuel by lia.
      destruct Hf as [-> | Hlt]; [cbn; lia|]. replace (scIdx nd =? -1) with false by lia. lia.
  Qed.

  (* top-level chain call: fuel = number of nodes, started at a forward target *)
  Lemma lands_chain_top sc b l : lands sc b l -> 0 < L -> (sc = -1 \/ 0 < sc) ->
    chain P (length (nodes P)) sc b = l.
  Proof.
    intros H Hi Hs. apply lands_chain; [exact H|]. unfold cbound, lenZ in *.
    destruct Hs as [-> | Hlt]; [cbn; lia|]. replace (sc =? -1) with false by lia. lia.
  Qed.

  Definition os_le (l : landing) (h : Z) : Prop :=
    match l with LAt _ nd' => 0 <= osTop nd' <= h | _ => True end.

  Lemma os_le_mono l h h' : os_le l h -> h <= h' -> os_le l h'.
  Proof. destruct l; cbn; lia. Qed.

  (* `lands` from a target as the compiler computes it, before the -1 encoding *)
  Definition landsR (x : Z) (b : bool) (l : landing) : Prop := lands (fin x) b l.

  Lemma landR_prefix k l v s x h : os_le l h -> h <= lenZ s -> landR k l v (s ++ x) = landR k l v s.
  Proof.
    intros Ho Hh. destruct l as [|j nd'|]; try reflexivity. cbn in Ho. unfold landR.
    rewrite lenZ_app. pose proof (lenZ_nonneg x).
    replace ((osTop nd' <? 0) || (lenZ s + lenZ x <? osTop nd')) with false by lia.
    replace ((osTop nd' <? 0) || (lenZ s <? osTop nd')) with false by lia.
    rewrite firstnZ_app by lia. reflexivity.
  Qed.
End M.

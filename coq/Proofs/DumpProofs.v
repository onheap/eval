(* DumpProofs.v — C13: what the round trip through Dump and Compile preserves. The tree read back from the printed
   program is the compiled tree with its fast marks cleared (`strip`); clearing them, and optimising again under any
   configuration, preserves the denotation, hence the value whenever both evaluations return one. *)
Require Import Base Tree Opt Pass OptSound PrefixProofs.
Open Scope Z_scope.
Open Scope list_scope.

Lemma strip_idem : forall t, strip (strip t) = strip t.
Proof.
  induction t as [v|n k|name fast cs IH|c t f IHc IHt IHf] using tree_ind2; try reflexivity.
  - cbn [strip]. f_equal. rewrite map_map. apply map_ext_Forall, IH.
  - cbn [strip]. rewrite IHc, IHt, IHf. reflexivity.
Qed.

Lemma strip_pass : is_pass strip (fun n _ cs => TOp n false cs).
Proof. repeat split. intros [] H; try discriminate H; reflexivity. Qed.

Section S.
  Variable fetch : str -> Z -> res value.
  Variable custom : str -> list value -> res value.
  Notation wt := (wt fetch custom).
  Notation sem := (sem fetch custom).

  Lemma sound_strip : forall t, sound fetch custom t (strip t).
  Proof. apply (sound_pass _ _ _ _ strip_pass). intros. apply sound_mark. Qed.

  (* the recompiled program (any configuration cfg' — in particular all optimisations off, or the original
     subset) returns the value the original returned, whenever both return a value *)
  Theorem roundtrip_value cfg' t a b : wt t ->
    snd (sem t) = Ok a -> snd (sem (optimize custom cfg' (strip t))) = Ok b -> a = b.
  Proof.
    intros W HA HB.
    pose proof (sem_refines_den fetch custom t W a HA) as DA.
    pose proof (sem_refines_den fetch custom _ (wt_optimize fetch custom cfg' _ (proj2 (sound_strip t) W)) b HB) as DB.
    rewrite den_optimize, (proj1 (sound_strip t)) in DB. congruence.
  Qed.

  (* without fast marks nothing changes at all: same value or error, same effects *)
  Theorem roundtrip_exact t : strip t = t -> sem (strip t) = sem t.
  Proof. intros ->. reflexivity. Qed.
End S.

(* LoopOrder.v — C12: the LOOP events of one evaluation report strictly increasing positions. The event node in front
   of the real node at index p reports position p, and the evaluators visit the nodes of the event-mode program in
   increasing order (every jump goes forward). `seenE` is the relation under which the inductions of EvalCorrect.v /
   TryCorrect.v are read for the event-mode program (`describes_seenE`). *)
Require Import Base Run EvalDefs EvalCorrectE.
From Coq Require Import Lia Sorted.
Open Scope Z_scope.
Open Scope list_scope.

Fixpoint loops (tr : list obs) : list Z :=
  match tr with
  | [] => []
  | OLoop p _ _ :: tr' => p :: loops tr'
  | _ :: tr' => loops tr'
  end.

Fixpoint incr_from (lo : Z) (l : list Z) : bool :=
  match l with [] => true | p :: l' => (lo <? p) && incr_from p l' end.

Definition lbb (lo : Z) (x : list obs * mres) : bool := incr_from lo (loops (fst x)).

Lemma loops_app a b : loops (a ++ b) = loops a ++ loops b.
Proof. induction a as [|o a IH]; [reflexivity|]. destruct o; cbn [app loops]; rewrite IH; reflexivity. Qed.

Lemma loops_e2o tr : loops (map e2o tr) = [].
Proof. induction tr as [|e tr IH]; [reflexivity|]. destruct e; cbn [map e2o loops]; exact IH. Qed.

Lemma incr_weaken l : forall lo lo', lo <= lo' -> incr_from lo' l = true -> incr_from lo l = true.
Proof. destruct l as [|p l]; intros lo lo' H1 H2; [reflexivity|]. cbn [incr_from] in *. apply andb_prop in H2. destruct H2 as [A B]. rewrite B. replace (lo <? p) with true by lia. reflexivity. Qed.

Lemma lbb_pre lo tr x : lbb lo (preM (map e2o tr) x) = lbb lo x.
Proof. unfold lbb, preM. cbn [fst]. rewrite loops_app, loops_e2o. reflexivity. Qed.

(* x is y up to LOOP events, and the LOOP positions of x increase from lo, where the machine stands *)
Definition seenE (lo : Z) (x y : list obs * mres) : Prop := dl x = y /\ lbb lo x = true.

Lemma describes_seenE : describes true seenE.
Proof.
  split.
  - intros lo tr x y [<- H]. split; [apply dl_pre|rewrite lbb_pre; exact H].
  - intros lo tr r. split; [unfold dl; cbn [fst snd]; rewrite drop_loops_e2o; reflexivity|unfold lbb; cbn [fst]; rewrite loops_e2o; reflexivity].
  - intros _ lo p k s x y Hlt [<- H]. split; [rewrite dl_preM; destruct (dl x); reflexivity|].
    unfold lbb, preM in *. cbn [fst app loops incr_from]. rewrite H. replace (lo <? p) with true by lia. reflexivity.
  - intros lo lo' x y Hle [E H]. split; [exact E|]. eapply incr_weaken; eauto.
Qed.

(* in the usual vocabulary: lo followed by the reported positions is a strictly increasing sequence *)
Lemma incr_from_sorted : forall l lo, incr_from lo l = true -> LocallySorted Z.lt (lo :: l).
Proof.
  induction l as [|p l IH]; intros lo H; [constructor|]. cbn [incr_from] in H. apply andb_prop in H. destruct H as [A B].
  constructor; [apply IH; exact B|lia].
Qed.

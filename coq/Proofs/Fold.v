(* Fold.v — C10: constant folding respects operator purity and defers failures to run time. *)
Require Import Base Tables Ops Tree Opt OpsList.
Open Scope Z_scope.
Open Scope list_scope.

(* `apply_op` looks a name up among the built-ins first, `stateless_fn` in the stateless lists first: they pick the same
   function only because a name the config declares stateless cannot shadow a built-in, every built-in being stateless *)
Lemma builtin_is_stateless name o : builtin name = Some o -> in_names name builtin_stateless = true.
Proof.
  assert (Hs : forallb (fun e => existsb (String.eqb (fst e)) builtin_stateless) builtin_table = true) by (vm_compute; reflexivity).
  unfold builtin. induction builtin_table as [|[k o'] tbl IH]; cbn [lookup_builtin forallb fst] in *; [discriminate|].
  apply andb_prop in Hs. destruct Hs as [Hk Hs]. destruct (str_eqb name (ss k)) eqn:E; [|exact (IH Hs)].
  intros _. apply list_eqb_N_eq in E. subst name. apply existsb_exists in Hk. destruct Hk as (k' & Hin & Ek). apply String.eqb_eq in Ek. subst k'.
  unfold in_names. apply existsb_exists. exists k. split; [exact Hin|apply list_eqb_N_eq; reflexivity].
Qed.

Lemma all_consts_map cs vs : all_consts cs = Some vs -> cs = map TConst vs.
Proof.
  revert vs. induction cs as [|c cs IH]; intros vs H; cbn [all_consts] in H; [inversion H; reflexivity|].
  destruct c; try discriminate. destruct (all_consts cs); [|discriminate]. inversion H. cbn [map]. f_equal. apply IH. reflexivity.
Qed.

Lemma bool_scan_decides d cs b : bool_scan d cs = Some (Some b) -> b = d /\ In (TConst (VBool d)) cs.
Proof.
  induction cs as [|c cs IH]; cbn [bool_scan]; [discriminate|]. destruct c as [v| | |]; try (intros H; destruct (IH H); split; [assumption|right; assumption]).
  destruct v as [|b0| | | | | | | |]; try discriminate. destruct (Bool.eqb b0 d) eqn:E.
  - intros H. inversion H; subst. apply Bool.eqb_prop in E. subst. split; [reflexivity|left; reflexivity].
  - intros H. destruct (IH H). split; [assumption|right; assumption].
Qed.

Section F.
  Variable custom : str -> list value -> res value.
  Variable cfg : config.

  Notation stateless_fn := (stateless_fn custom cfg).
  Notation fold_node := (fold_node custom cfg).
  Notation cfold := (cfold custom cfg).

  Definition is_stateless (name : str) : Prop :=
    in_names name builtin_stateless = true \/ (mem_str name (stateless cfg) = true /\ mem_str name (registered cfg) = true).

  Lemma stateless_fn_some name fn : stateless_fn name = Some fn -> is_stateless name.
  Proof.
    unfold Opt.stateless_fn, is_stateless. destruct (in_names name builtin_stateless); [auto|].
    destruct (mem_str name (stateless cfg) && mem_str name (registered cfg)) eqn:E; [|discriminate].
    apply andb_prop in E. auto.
  Qed.

  Lemma stateless_fn_apply name fn : stateless_fn name = Some fn -> forall vs, fn vs = apply_op custom name vs.
  Proof.
    unfold Opt.stateless_fn, apply_op. intros H vs. destruct (in_names name builtin_stateless) eqn:Es.
    - destruct (builtin name); inversion H; reflexivity.
    - destruct (mem_str name (stateless cfg) && mem_str name (registered cfg)); [|discriminate]. inversion H; subst.
      destruct (builtin name) eqn:Eb; [|reflexivity]. rewrite (builtin_is_stateless _ _ Eb) in Es. discriminate.
  Qed.

  Lemma fold_node_cases name fast cs (P : tree * list call -> Prop) :
    P (TOp name fast cs, []) ->
    (forall d, op_kind name = Some d -> In (TConst (VBool d)) cs -> P (TConst (VBool d), [])) ->
    (forall vs, is_stateless name -> cs = map TConst vs ->
       P (match apply_op custom name vs with Ok r => TConst r | Err _ => TOp name fast cs end, [(name, vs)])) ->
    P (fold_node name fast cs).
  Proof.
    intros Pk Pd Pc. unfold Opt.fold_node. destruct (stateless_fn name) as [fn|] eqn:Es; [|exact Pk].
    assert (G : P (match all_consts cs with
               | Some vs => match fn vs with Ok r => (TConst r, [(name, vs)]) | Err _ => (TOp name fast cs, [(name, vs)]) end
               | None => (TOp name fast cs, []) end)).
    { destruct (all_consts cs) as [vs|] eqn:Ea; [|exact Pk].
      specialize (Pc vs (stateless_fn_some _ _ Es) (all_consts_map _ _ Ea)).
      rewrite <- (stateless_fn_apply _ _ Es) in Pc. destruct (fn vs); exact Pc. }
    destruct (op_kind name) as [d|]; [|exact G]. destruct (bool_scan d cs) as [[b|]|] eqn:Eb; [|exact G|exact Pk].
    destruct (bool_scan_decides _ _ _ Eb) as [-> Hin]. exact (Pd d eq_refl Hin).
  Qed.

  Lemma fold_node_fst name fast cs (P : tree -> Prop) :
    P (TOp name fast cs) ->
    (forall d, op_kind name = Some d -> In (TConst (VBool d)) cs -> P (TConst (VBool d))) ->
    (forall vs r, cs = map TConst vs -> apply_op custom name vs = Ok r -> P (TConst r)) ->
    P (fst (fold_node name fast cs)).
  Proof.
    intros Pk Pd Pc. apply (fold_node_cases name fast cs (fun r => P (fst r))); [exact Pk|exact Pd|].
    intros vs _ E. cbn [fst]. destruct (apply_op custom name vs) as [r|e] eqn:Ea; [exact (Pc vs r E Ea)|exact Pk].
  Qed.

  (* only stateless operators are ever invoked at compile time *)
  Theorem cfold_calls_stateless : forall t c, In c (snd (cfold t)) -> is_stateless (fst c).
  Proof.
    induction t as [v|n k|name fast cs IH|c t f IHc IHt IHf] using tree_ind2; intros c0 Hin; cbn [Opt.cfold snd] in Hin.
    - destruct Hin.
    - destruct Hin.
    - apply in_app_or in Hin. destruct Hin as [Hin|Hin].
      + apply in_concat in Hin. destruct Hin as [l [Hl Hc]]. apply in_map_iff in Hl. destruct Hl as [r [<- Hr]].
        apply in_map_iff in Hr. destruct Hr as [ch [<- Hch]]. rewrite Forall_forall in IH. apply (IH ch Hch). exact Hc.
      + revert Hin. apply fold_node_cases; [intros []|intros _ _ _ []|]. intros vs Hs _ [<-|[]]. exact Hs.
    - apply in_app_or in Hin. destruct Hin as [Hin|Hin]; [apply IHc; exact Hin|].
      apply in_app_or in Hin. destruct Hin as [Hin|Hin]; [apply IHt|apply IHf]; exact Hin.
  Qed.

  (* a failing constant sub-expression is left in place (Compile does not fail; the error surfaces from Eval,
     by run_compile_correct exactly when `sem` reaches it) *)
  Theorem fold_failure_kept name fast cs fn vs e :
    stateless_fn name = Some fn -> all_consts cs = Some vs -> fn vs = Err e ->
    (forall d, op_kind name = Some d -> bool_scan d cs = Some None) ->
    fst (fold_node name fast cs) = TOp name fast cs.
  Proof.
    intros Hs Hc He Hb. unfold Opt.fold_node. rewrite Hs. destruct (op_kind name) as [d|].
    - rewrite (Hb d eq_refl), Hc, He. reflexivity.
    - rewrite Hc, He. reflexivity.
  Qed.

  Theorem impure_never_folded name fast cs : stateless_fn name = None ->
    fold_node name fast cs = (TOp name fast cs, []).
  Proof. intros H. unfold Opt.fold_node. rewrite H. reflexivity. Qed.

  Theorem cfold_impure_node name fast cs : stateless_fn name = None ->
    fst (cfold (TOp name fast cs)) = TOp name fast (map (fun c => fst (cfold c)) cs).
  Proof. intros H. cbn [Opt.cfold fst]. rewrite impure_never_folded by exact H. cbn [fst]. rewrite map_map. reflexivity. Qed.

  Theorem fold_var_only_if_decided name fast cs v :
    fst (fold_node name fast cs) = TConst v -> ~ Forall (fun c => exists w, c = TConst w) cs ->
    exists d, op_kind name = Some d /\ v = VBool d /\ In (TConst (VBool d)) cs.
  Proof.
    apply fold_node_fst; [discriminate| |].
    - intros d Hk Hin H _. inversion H. eauto.
    - intros vs r -> _ _ Hn. destruct Hn. apply Forall_forall. intros c Hc. apply in_map_iff in Hc. destruct Hc as (w & <- & _). eauto.
  Qed.
End F.

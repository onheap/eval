(* LexProofs.v — C14: the token sequence depends on the tokens, not on the layout: the lexer inverts every rendering
   of a token list with arbitrary Unicode white space (and comments) between the tokens, a separator being needed
   only where two adjacent tokens would otherwise fuse (`lex_loop_item`, one token and its separator; `lex_render`).
   Conversely, one step of the lexer on any text (`next_raw_inv`, `classify_inv`, `lex_loop_inv`), from which
   FormatProofs.v and FormatReject.v read off that an accepted source is a rendering and a rejected one a rendering
   followed by the offending token. *)
Require Import Base Directives Lexer Print OpsList.
Open Scope Z_scope.
Open Scope list_scope.

Lemma notin_eqb (x c : N) l : ~ In x (c :: l) -> (c =? x)%N = false /\ ~ In x l.
Proof. intros H. split; [apply N.eqb_neq; intros ->; apply H; left; reflexivity|intros Hin; apply H; right; exact Hin]. Qed.

Lemma delim_cases c : is_delim c = true -> c = 40%N \/ c = 41%N \/ c = 91%N \/ c = 93%N \/ c = 59%N \/ c = 44%N.
Proof.
  unfold is_delim. intros H. repeat (apply orb_prop in H; destruct H as [H|H]); apply N.eqb_eq in H; tauto.
Qed.

Lemma delim_nospace c : is_delim c = true -> is_space c = false.
Proof. intros H. destruct (delim_cases c H) as [->|[->|[->|[->|[->| ->]]]]]; reflexivity. Qed.

Section L.
  Variable is_letter is_number : N -> bool.
  Notation classify := (classify is_letter is_number).
  Notation lex_loop := (lex_loop is_letter is_number).

  Definition all_space (s : str) : Prop := Forall (fun c => is_space c = true) s.
  Definition wordc (c : N) : bool := negb (is_space c || is_delim c).
  Definition stops (s : str) : Prop := match s with [] => True | c :: _ => wordc c = false end.
  (* a word as the lexer cuts it: word characters, the first of which opens neither a comment nor a literal *)
  Definition word (c : N) (w : str) : Prop :=
    wordc c = true /\ c <> 59%N /\ c <> 34%N /\ Forall (fun c => wordc c = true) w.

  Lemma wordc_inv c : wordc c = true -> is_space c = false /\ is_delim c = false.
  Proof. unfold wordc. intros H. apply orb_false_iff, negb_true_iff. exact H. Qed.

  Lemma space_not_word c : is_space c = true -> wordc c = false.
  Proof. intros H. unfold wordc. rewrite H. reflexivity. Qed.

  Lemma trim_left_spaces ws s : all_space ws -> trim_left (ws ++ s) = trim_left s.
  Proof. induction 1 as [|c ws Hc _ IH]; cbn [app trim_left]; [reflexivity|]. rewrite Hc. exact IH. Qed.

  Lemma next_raw_spaces ws s : all_space ws -> next_raw (ws ++ s) = next_raw s.
  Proof. intros H. unfold next_raw. rewrite (trim_left_spaces ws s H). reflexivity. Qed.

  Lemma take_word_app w s : Forall (fun c => wordc c = true) w -> stops s -> take_word (w ++ s) = (w, s).
  Proof.
    induction 1 as [|c w Hc _ IH]; intros Hs; cbn [app].
    - destruct s as [|c s]; [reflexivity|]. cbn [take_word]. apply negb_false_iff in Hs. rewrite Hs. reflexivity.
    - cbn [take_word]. apply negb_true_iff in Hc. rewrite Hc, (IH Hs). reflexivity.
  Qed.

  Lemma next_raw_word c w s : word c w -> stops s -> next_raw ((c :: w) ++ s) = (RWord (c :: w), s).
  Proof.
    intros (Hc & H1 & H2 & Hw) Hs. unfold next_raw. cbn [app trim_left]. destruct (wordc_inv c Hc) as [Hsp Hd].
    apply N.eqb_neq in H1, H2. rewrite Hsp, H1, H2, Hd. change (c :: w ++ s) with ((c :: w) ++ s).
    rewrite take_word_app; [reflexivity|constructor; assumption|exact Hs].
  Qed.

  Lemma next_raw_delim c s : is_delim c = true -> c <> 59%N -> next_raw (c :: s) = (RWord [c], s).
  Proof.
    intros Hd H1. unfold next_raw. cbn [trim_left]. rewrite (delim_nospace c Hd), Hd.
    apply N.eqb_neq in H1. rewrite H1. destruct (c =? 34)%N eqn:E; [|reflexivity].
    apply N.eqb_eq in E. subst c. discriminate.
  Qed.

  Lemma take_string_app content s : ~ In 34%N content -> take_string (content ++ 34%N :: s) = Some (content, s).
  Proof.
    induction content as [|c content IH]; intros H; cbn [app take_string]; [reflexivity|].
    destruct (notin_eqb _ _ _ H) as [E H']. rewrite E, (IH H'). reflexivity.
  Qed.

  (* a string literal runs to the next quote: no escapes, so backslashes, line breaks, `;` and parentheses are content *)
  Lemma next_raw_string content s : ~ In 34%N content -> next_raw ((34%N :: content ++ [34%N]) ++ s) = (RString content, s).
  Proof. intros H. cbn [app]. rewrite <- app_assoc. unfold next_raw. cbn. rewrite take_string_app by exact H. reflexivity. Qed.

  (* a line ends at a line break or with the input *)
  Lemma take_line_app text s : ~ In 10%N text -> take_line s = ([], s) -> take_line (text ++ s) = (text, s).
  Proof.
    induction text as [|c text IH]; intros H Es; cbn [app take_line]; [exact Es|].
    destruct (notin_eqb _ _ _ H) as [E H']. rewrite E, (IH H' Es). reflexivity.
  Qed.

  Lemma next_raw_line text s : ~ In 10%N text -> take_line s = ([], s) -> next_raw ((59%N :: text) ++ s) = (RComment (59%N :: text), s).
  Proof.
    intros H Es. unfold next_raw. cbn [app trim_left]. change (is_space 59%N) with false. cbn [N.eqb Pos.eqb].
    change (59%N :: text ++ s) with ((59%N :: text) ++ s). rewrite take_line_app; [reflexivity| |exact Es]. intros [Hc|Hin]; [discriminate|contradiction].
  Qed.

  (* a comment runs to the end of the line; the line break stays (and is then skipped as white space) *)
  Lemma next_raw_comment text s : ~ In 10%N text -> next_raw (59%N :: text ++ 10%N :: s) = (RComment (59%N :: text), 10%N :: s).
  Proof. intros H. apply next_raw_line; [exact H|reflexivity]. Qed.

  Definition tok_text (t : tok) : str :=
    match t with
    | KInt s | KIdent s => s
    | KStr s => 34%N :: s ++ [34%N]
    | KLParen => [40%N] | KRParen => [41%N] | KLBracket => [91%N] | KRBracket => [93%N] | KComma => [44%N]
    | KComment s => s
    end.

  (* a token whose text is a plain word (may fuse with a following word character) *)
  Definition is_word_tok (t : tok) : bool := match t with KInt _ | KIdent _ => true | _ => false end.

  (* well-formed token: its text lexes to itself *)
  Definition wf_tok (infix : bool) (t : tok) : Prop :=
    match t with
    | KInt s | KIdent s =>
      (exists c w, s = c :: w /\ wordc c = true /\ c <> 59%N /\ c <> 34%N /\ Forall (fun c => wordc c = true) w) /\
      classify infix s = Some [t]
    | KStr s => ~ In 34%N s
    | KComment s => exists text, s = 59%N :: text /\ ~ In 10%N text      (* `;` up to, not including, the line break *)
    | _ => True
    end.

  Definition sep_ok (t : tok) (sep : str) (next : str) : Prop :=
    all_space sep /\ (sep = [] -> is_word_tok t = true -> stops next) /\
    (* a comment ends at a line break, or at the end of the input *)
    (is_comment t = true -> (exists sep', sep = 10%N :: sep') \/ (sep = [] /\ next = [])).

  Fixpoint render (items : list (tok * str)) : str :=
    match items with [] => [] | (t, sep) :: rest => tok_text t ++ sep ++ render rest end.

  Fixpoint wf_items (infix : bool) (items : list (tok * str)) : Prop :=
    match items with
    | [] => True
    | (t, sep) :: rest => wf_tok infix t /\ sep_ok t sep (render rest) /\ wf_items infix rest
    end.

  Lemma wf_word infix t : wf_tok infix t -> is_word_tok t = true ->
    exists c w, tok_text t = c :: w /\ word c w /\ classify infix (c :: w) = Some [t].
  Proof.
    destruct t; try discriminate; intros [(c & w & -> & Hw) Hcl] _; exists c, w; repeat split; try apply Hw; exact Hcl.
  Qed.

  Lemma stops_sep sep rest : all_space sep -> (sep = [] -> stops rest) -> stops (sep ++ rest).
  Proof.
    intros Ha H. destruct Ha as [|c sep Hc _]; [apply H; reflexivity|exact (space_not_word c Hc)].
  Qed.

  Lemma tok_head infix t : wf_tok infix t -> exists c r, tok_text t = c :: r /\ is_space c = false.
  Proof.
    intros Ht. destruct (is_word_tok t) eqn:Hw.
    { destruct (wf_word infix t Ht Hw) as (c & w & E & (Hc & _) & _). exists c, w. split; [exact E|apply wordc_inv; exact Hc]. }
    destruct t as [s|s|s| | | | | |s]; try discriminate; try (eexists _, _; split; reflexivity).
    destruct Ht as (text & -> & _). eexists _, _; split; reflexivity.
  Qed.

  Lemma trim_left_tok infix t x : wf_tok infix t -> trim_left (tok_text t ++ x) = tok_text t ++ x.
  Proof. intros Ht. destruct (tok_head infix t Ht) as (c & r & -> & Hc). cbn [app trim_left]. rewrite Hc. reflexivity. Qed.

  Lemma lex_loop_item infix t sep next f lead : wf_tok infix t -> sep_ok t sep next -> all_space lead ->
    lex_loop (S f) infix (lead ++ tok_text t ++ sep ++ next) = option_map (cons t) (lex_loop f infix (sep ++ next)).
  Proof.
    intros Ht (Hsp & Hfuse & Hcmt) Hlead. cbn [Lexer.lex_loop]. rewrite next_raw_spaces by exact Hlead.
    destruct (is_word_tok t) eqn:Hw.
    { destruct (wf_word infix t Ht Hw) as (c & w & -> & Hcw & Hcl).
      rewrite next_raw_word, Hcl; [reflexivity|exact Hcw|]. apply stops_sep; [exact Hsp|]. intros E. exact (Hfuse E eq_refl). }
    destruct t as [s|s|s| | | | | |s]; try discriminate; cbn [tok_text wf_tok is_comment] in *.
    2-6: cbn [app]; rewrite next_raw_delim by (try reflexivity; discriminate); destruct infix; reflexivity.
    - rewrite next_raw_string by exact Ht. reflexivity.
    - destruct Ht as (text & -> & Hnl). rewrite next_raw_line; [reflexivity|exact Hnl|].
      destruct (Hcmt eq_refl) as [[sep' ->]|[-> ->]]; reflexivity.
  Qed.

  Theorem lex_render infix : forall items fuel lead, wf_items infix items -> all_space lead ->
    (length (lead ++ render items) < fuel)%nat ->
    lex_loop fuel infix (lead ++ render items) = Some (map fst items).
  Proof.
    induction items as [|[t sep] rest IH]; intros fuel lead Hwf Hlead Hfuel; (destruct fuel; [cbn in Hfuel; lia|]).
    - cbn [Lexer.lex_loop render]. rewrite next_raw_spaces by exact Hlead. reflexivity.
    - destruct Hwf as (Ht & Hsep & Hrest). cbn [render]. rewrite (lex_loop_item infix t sep _ fuel lead Ht Hsep Hlead).
      rewrite IH; [reflexivity|exact Hrest|apply Hsep|].
      destruct (tok_head infix t Ht) as (c & r & E & _). cbn [render] in Hfuel. rewrite E, !app_length in Hfuel. cbn [length] in Hfuel. rewrite app_length. lia.
  Qed.

  Corollary lex_rendering infix lead items : all_space lead -> wf_items infix items ->
    lex is_letter is_number infix (lead ++ render items) = Some (map fst items).
  Proof. intros Hl Hwf. apply lex_render; [exact Hwf|exact Hl|apply Nat.lt_succ_diag_r]. Qed.

  (* two layouts of the same tokens give the same token sequence *)
  Corollary layout_invariance infix items1 items2 :
    wf_items infix items1 -> wf_items infix items2 -> map fst items1 = map fst items2 ->
    lex is_letter is_number infix (render items1) = lex is_letter is_number infix (render items2).
  Proof.
    intros H1 H2 E. pose proof (lex_rendering infix [] _ (Forall_nil _) H1) as E1.
    pose proof (lex_rendering infix [] _ (Forall_nil _) H2) as E2. cbn [app] in E1, E2. rewrite E1, E2, E. reflexivity.
  Qed.

  (* ... and comments may come and go: what the parser sees (the tokens without the comments) is the same *)
  Corollary layout_invariance_comments infix items1 items2 :
    wf_items infix items1 -> wf_items infix items2 -> drop_comments (map fst items1) = drop_comments (map fst items2) ->
    option_map drop_comments (lex is_letter is_number infix (render items1)) =
    option_map drop_comments (lex is_letter is_number infix (render items2)).
  Proof.
    intros H1 H2 E. pose proof (lex_rendering infix [] _ (Forall_nil _) H1) as E1.
    pose proof (lex_rendering infix [] _ (Forall_nil _) H2) as E2. cbn [app] in E1, E2. rewrite E1, E2. cbn [option_map]. rewrite E. reflexivity.
  Qed.
End L.

Lemma spaces_space n : all_space (spaces n).
Proof. induction n as [|n IH]; constructor; [reflexivity|exact IH]. Qed.

Lemma render_app a b : render (a ++ b) = render a ++ render b.
Proof. induction a as [|[t sep] a IH]; [reflexivity|]. cbn [app render]. rewrite IH, <- !app_assoc. reflexivity. Qed.

Lemma drop_comments_app a b : drop_comments (a ++ b) = drop_comments a ++ drop_comments b.
Proof. apply filter_app. Qed.

Lemma drop_comments_id ts : Forall (fun u => is_comment u = false) ts -> drop_comments ts = ts.
Proof.
  induction 1 as [|u ts Hu _ IH]; [reflexivity|]. unfold drop_comments in *. cbn [filter]. rewrite Hu, IH. reflexivity.
Qed.

Lemma trim_left_split s : exists ws, s = ws ++ trim_left s /\ all_space ws.
Proof.
  induction s as [|c s (ws & E & H)]; [exists []; split; [reflexivity|constructor]|]. cbn [trim_left].
  destruct (is_space c) eqn:Hc; [|exists []; split; [reflexivity|constructor]].
  exists (c :: ws). split; [cbn [app]; f_equal; exact E|constructor; assumption].
Qed.

Lemma trim_left_head s : trim_left s = [] \/ exists d r, trim_left s = d :: r /\ is_space d = false.
Proof.
  induction s as [|c s IH]; [left; reflexivity|]. cbn [trim_left]. destruct (is_space c) eqn:Hc; [exact IH|].
  right. exists c, s. split; [reflexivity|exact Hc].
Qed.

Lemma trim_left_idem s : trim_left (trim_left s) = trim_left s.
Proof. destruct (trim_left_head s) as [->|(d & r & -> & H)]; [reflexivity|]. cbn [trim_left]. rewrite H. reflexivity. Qed.

Lemma take_line_spec s : let (a, b) := take_line s in s = a ++ b /\ ~ In 10%N a /\ (b = [] \/ exists b', b = 10%N :: b').
Proof.
  induction s as [|c s IH]; cbn [take_line]; [split; [reflexivity|split; [intros []|left; reflexivity]]|].
  destruct (c =? 10)%N eqn:E.
  - apply N.eqb_eq in E. subst c. split; [reflexivity|split; [intros []|right; eexists; reflexivity]].
  - destruct (take_line s) as [a b]. destruct IH as (-> & E2 & E3). split; [reflexivity|split; [|exact E3]].
    intros [Hc|Hin]; [subst c; discriminate E|exact (E2 Hin)].
Qed.

Lemma take_string_spec s :
  match take_string s with Some (a, b) => s = a ++ 34%N :: b /\ ~ In 34%N a | None => ~ In 34%N s end.
Proof.
  induction s as [|c s IH]; cbn [take_string]; [intros []|]. destruct (c =? 34)%N eqn:E.
  - apply N.eqb_eq in E. subst c. split; [reflexivity|intros []].
  - destruct (take_string s) as [[a b]|].
    + destruct IH as (-> & E2). split; [reflexivity|]. intros [Hc|Hin]; [subst c; discriminate E|exact (E2 Hin)].
    + intros [Hc|Hin]; [subst c; discriminate E|exact (IH Hin)].
Qed.

Lemma take_word_spec s : let (a, b) := take_word s in s = a ++ b /\ Forall (fun c => wordc c = true) a /\ stops b.
Proof.
  induction s as [|c s IH]; cbn [take_word]; [split; [reflexivity|split; [constructor|exact I]]|].
  destruct (is_space c || is_delim c) eqn:E.
  - split; [reflexivity|split; [constructor|]]. cbn [stops]. unfold wordc. rewrite E. reflexivity.
  - destruct (take_word s) as [a b]. destruct IH as (-> & E2 & E3). split; [reflexivity|split; [|exact E3]].
    constructor; [unfold wordc; rewrite E; reflexivity|exact E2].
Qed.

(* the converse of next_raw_word, _delim, _string, _line *)
Lemma next_raw_inv s :
  match next_raw s with
  | (REnd, _) => trim_left s = []
  | (RUnclosed, _) => exists r, trim_left s = 34%N :: r /\ ~ In 34%N r
  | (RComment a, b) => exists text, a = 59%N :: text /\ ~ In 10%N text /\ trim_left s = a ++ b /\ (b = [] \/ exists b', b = 10%N :: b')
  | (RString a, b) => ~ In 34%N a /\ trim_left s = (34%N :: a ++ [34%N]) ++ b
  | (RWord w, b) => trim_left s = w ++ b /\
      ((exists c, w = [c] /\ is_delim c = true /\ c <> 59%N) \/ (exists c w', w = c :: w' /\ word c w' /\ stops b))
  end.
Proof.
  unfold next_raw. destruct (trim_left_head s) as [->|(c & s' & -> & Hc)]; [reflexivity|].
  destruct (c =? 59)%N eqn:E59.
  { apply N.eqb_eq in E59. subst c. cbn [take_line N.eqb Pos.eqb]. pose proof (take_line_spec s') as T.
    destruct (take_line s') as [a b]. destruct T as (-> & E2 & E3). exists a. repeat split; assumption. }
  destruct (c =? 34)%N eqn:E34.
  { apply N.eqb_eq in E34. subst c. pose proof (take_string_spec s') as T. destruct (take_string s') as [[a b]|].
    - destruct T as (-> & E2). split; [exact E2|]. cbn [app]. rewrite <- app_assoc. reflexivity.
    - exists s'. split; [reflexivity|exact T]. }
  apply N.eqb_neq in E59, E34. destruct (is_delim c) eqn:Ed.
  { split; [reflexivity|left]. exists c. repeat split; assumption. }
  cbn [take_word]. rewrite Hc, Ed. pose proof (take_word_spec s') as T. destruct (take_word s') as [w b].
  destruct T as (-> & Hw & Hb). split; [reflexivity|right]. exists c, w. repeat split; try assumption. unfold wordc. rewrite Hc, Ed. reflexivity.
Qed.

Lemma delim_token c : is_delim c = true -> c <> 59%N ->
  exists t, tok_text t = [c] /\ is_word_tok t = false /\ is_comment t = false /\
    forall is_letter is_number infix, classify is_letter is_number infix [c] = Some [t] /\ wf_tok is_letter is_number infix t.
Proof.
  intros Hd H59. destruct (delim_cases c Hd) as [->|[->|[->|[->|[->| ->]]]]]; try contradiction;
    [exists KLParen|exists KRParen|exists KLBracket|exists KRBracket|exists KComma]; repeat split; destruct infix; reflexivity.
Qed.

Section K.
  Variable is_letter is_number : N -> bool.
  Notation classify := (classify is_letter is_number).
  Notation valid_ident := (valid_ident is_letter is_number).

  (* what `classify` can return. More than its graph: `ClDelim` admits any token that is neither word nor comment, for any
     delimiter, `;` included; `classify_noquote` and `recl_nocomment` need no more *)
  Inductive classified (infix : bool) (w : str) : list tok -> Prop :=
  | ClDelim d t : w = [d] -> is_delim d = true -> is_word_tok t = false -> is_comment t = false -> classified infix w [t]
  | ClInt : valid_int w = true -> classified infix w [KInt w]
  | ClIdent : valid_ident w = true -> classified infix w [KIdent w]
  | ClBang rest : infix = true -> w = 33%N :: rest -> valid_ident rest = true -> classified infix w [KIdent (ss "!"); KIdent rest].

  Lemma classify_inv infix w ts : classify infix w = Some ts -> classified infix w ts.
  Proof.
    unfold Lexer.classify. set (plain := if str_eqb w (ss "(") then _ else _).
    assert (P : plain = Some ts -> classified infix w ts).
    { unfold plain.
      (* the five delimiter tests *)
      repeat match goal with |- (if str_eqb w ?d then _ else _) = _ -> _ =>
        destruct (str_eqb w d) eqn:E; [apply list_eqb_N_eq in E; intros [= <-]; eapply ClDelim; [exact E|reflexivity..]|clear E] end.
      destruct (valid_int w) eqn:V; [intros [= <-]; apply ClInt; exact V|clear V].
      destruct (valid_ident w) eqn:V; [intros [= <-]; apply ClIdent; exact V|discriminate]. }
    clearbody plain. destruct w as [|c rest]; [exact P|]. destruct ((c =? 33)%N && infix) eqn:E; [|exact P].
    apply andb_prop in E. destruct E as [Ec ->]. apply N.eqb_eq in Ec. subst c.
    destruct (valid_ident (33%N :: rest)) eqn:V1; [intros [= <-]; apply ClIdent; exact V1|].
    destruct (valid_ident rest) eqn:V2; [|exact P]. intros [= <-]. apply (ClBang _ _ rest); [reflexivity|reflexivity|exact V2].
  Qed.

  Lemma str_eqb_single' c w d : c <> d -> str_eqb (c :: w) [d] = false.
  Proof. intros H. unfold str_eqb. cbn [list_eqb]. apply N.eqb_neq in H. rewrite H. reflexivity. Qed.

  (* on a word that starts with a word character the delimiter tests fail, and prefix notation has no `!` split *)
  Lemma classify_word c w : wordc c = true ->
    classify false (c :: w) = if valid_int (c :: w) then Some [KInt (c :: w)]
                              else if valid_ident (c :: w) then Some [KIdent (c :: w)] else None.
  Proof.
    intros Hc. unfold Lexer.classify. rewrite andb_false_r.
    assert (D : forall d, is_delim d = true -> str_eqb (c :: w) [d] = false).
    { intros d Hd. apply str_eqb_single'. intros ->. apply wordc_inv in Hc. destruct Hc. congruence. }
    change (ss "(") with [40%N]. change (ss ")") with [41%N]. change (ss "[") with [91%N].
    change (ss "]") with [93%N]. change (ss ",") with [44%N]. rewrite !D by reflexivity. reflexivity.
  Qed.
End K.

Section C.
  Variable is_letter is_number : N -> bool.
  Notation wf_tok := (wf_tok is_letter is_number).
  Notation classify := (classify is_letter is_number).
  Notation lex_loop := (lex_loop is_letter is_number).

  (* one step of the prefix-notation lexer, inverted. Prefix notation is enough: the infix lexer is a prefix lexer
     followed by a reclassification of the words (FormatInfix.lex_factor) *)
  Inductive lex_first (s : str) : Prop :=
  | LexEnd : trim_left s = [] -> (forall f, lex_loop (S f) false s = Some []) -> lex_first s
  | LexTok t sep next : trim_left s = tok_text t ++ sep ++ next -> wf_tok false t -> sep_ok t sep next ->
      trim_left (sep ++ next) = next -> (length (sep ++ next) < length s)%nat ->
      (forall f, lex_loop (S f) false s = option_map (cons t) (lex_loop f false (sep ++ next))) -> lex_first s
  | LexUnclosed r : trim_left s = 34%N :: r -> ~ In 34%N r -> (forall f, lex_loop (S f) false s = None) -> lex_first s
  | LexBadWord c w more : trim_left s = (c :: w) ++ more -> word c w -> stops more -> classify false (c :: w) = None ->
      (forall f, lex_loop (S f) false s = None) -> lex_first s.

  Lemma classify_word_tok c w ts : word c w -> classify false (c :: w) = Some ts ->
    exists t, ts = [t] /\ tok_text t = c :: w /\ wf_tok false t /\ is_comment t = false.
  Proof.
    intros Hw Ecl. pose proof Ecl as E. rewrite (classify_word is_letter is_number c w (proj1 Hw)) in E.
    destruct (valid_int (c :: w)); [|destruct (valid_ident is_letter is_number (c :: w)); [|discriminate]]; injection E as <-; eexists;
      (split; [reflexivity|split; [reflexivity|split; [|reflexivity]]]); (split; [exists c, w; split; [reflexivity|exact Hw]|exact Ecl]).
  Qed.

  (* a token followed by `b`: the white space that starts `b` is its separator *)
  Lemma lex_first_tok s t b : trim_left s = tok_text t ++ b -> wf_tok false t -> (is_word_tok t = true -> stops b) ->
    (is_comment t = true -> b = [] \/ exists b', b = 10%N :: b') ->
    (forall f, lex_loop (S f) false s = option_map (cons t) (lex_loop f false b)) -> lex_first s.
  Proof.
    intros Es Ht Hw Hc Hl. destruct (trim_left_split b) as (sep & Eb & Hsep).
    apply (LexTok s t sep (trim_left b)); [rewrite <- Eb; exact Es|exact Ht| | |rewrite <- Eb|rewrite <- Eb; exact Hl].
    - split; [exact Hsep|split].
      + intros -> Hwt. cbn [app] in Eb. rewrite <- Eb. exact (Hw Hwt).
      + intros Hct. destruct (Hc Hct) as [->|[b' ->]]; [right; destruct sep; [split; reflexivity|discriminate Eb]|left].
        destruct sep as [|x sep]; [|injection Eb as <- _; eexists; reflexivity]. exfalso.
        destruct (trim_left_head (10%N :: b')) as [E|(d & r & E & Hd)]; rewrite E in Eb; [discriminate|].
        injection Eb as <- _. discriminate Hd.
    - rewrite (trim_left_spaces sep _ Hsep). apply trim_left_idem.
    - destruct (trim_left_split s) as (ws & E & _). destruct (tok_head is_letter is_number false t Ht) as (c & r & Et & _).
      rewrite E, Es, Et, !app_length. cbn [length]. lia.
  Qed.

  Lemma lex_loop_inv s : lex_first s.
  Proof.
    pose proof (next_raw_inv s) as R. destruct (next_raw s) as [[a|a|w| |] b] eqn:E.
    - destruct R as (text & -> & Hn & Es & Hb).
      apply (lex_first_tok s (KComment (59%N :: text)) b); [exact Es|exists text; split; [reflexivity|exact Hn]|discriminate|intros _; exact Hb|].
      intros f. cbn [Lexer.lex_loop]. rewrite E. reflexivity.
    - destruct R as (Hn & Es). apply (lex_first_tok s (KStr a) b); [exact Es|exact Hn|discriminate|discriminate|].
      intros f. cbn [Lexer.lex_loop]. rewrite E. reflexivity.
    - destruct R as (Es & [(c & -> & Hd & H59)|(c & w' & -> & Hw & Hb)]).
      + destruct (delim_token c Hd H59) as (t & Et & Hnw & Hnc & Hcl). destruct (Hcl is_letter is_number false) as [Ecl Ht].
        apply (lex_first_tok s t b); [rewrite Et; exact Es|exact Ht|congruence|congruence|].
        intros f. cbn [Lexer.lex_loop]. rewrite E, Ecl. reflexivity.
      + destruct (classify false (c :: w')) as [ts|] eqn:Ecl.
        * destruct (classify_word_tok c w' ts Hw Ecl) as (t & -> & Et & Ht & Hnc).
          apply (lex_first_tok s t b); [rewrite Et; exact Es|exact Ht|intros _; exact Hb|congruence|].
          intros f. cbn [Lexer.lex_loop]. rewrite E, Ecl. reflexivity.
        * apply (LexBadWord s c w' b); try assumption. intros f. cbn [Lexer.lex_loop]. rewrite E, Ecl. reflexivity.
    - apply LexEnd; [exact R|]. intros f. cbn [Lexer.lex_loop]. rewrite E. reflexivity.
    - destruct R as (r & Es & Hr). apply (LexUnclosed s r); try assumption. intros f. cbn [Lexer.lex_loop]. rewrite E. reflexivity.
  Qed.

End C.

(* GroupSort.v — C16 on the whole pipeline: same-kind and/or groups of variables nested in one another come out of
   `optimize` (all passes on, in the generated pass order) as ONE node whose operands are the stable cost-ascending sort of
   their source order. Flattening has to precede sorting for this: in another order a nested group would be ranked as a
   unit and spliced in afterwards. The proof goes through `optimize_passes`, which checks only while the generated order
   is constant folding, nesting reduction, fast marking, reordering. *)
Require Import Base Ops Tree Opt Pass Fold ListFacts.
Open Scope Z_scope.
Open Scope list_scope.

(* a group of kind `a` (true = and-like): variables, or same-kind boolean operators over groups, never empty. No fast marks:
   source trees carry none. No constant leaves: folding would absorb one, or let it decide the group *)
Fixpoint grp (a : bool) (t : tree) : Prop :=
  match t with
  | TVar _ _ => True
  | TOp n false cs =>
    is_boolop n = true /\ is_and n = a /\ cs <> [] /\
    (fix all (l : list tree) : Prop := match l with [] => True | c :: l' => grp a c /\ all l' end) cs
  | _ => False
  end.

Fixpoint gleaves (t : tree) : list tree :=
  match t with
  | TOp _ _ cs => (fix go (l : list tree) : list tree := match l with [] => [] | c :: l' => gleaves c ++ go l' end) cs
  | _ => [t]
  end.

Fixpoint gleaves_list (l : list tree) : list tree := match l with [] => [] | c :: l' => gleaves c ++ gleaves_list l' end.

Lemma gleaves_op n f cs : gleaves (TOp n f cs) = gleaves_list cs.
Proof. reflexivity. Qed.

Lemma grp_op a n cs : grp a (TOp n false cs) <-> is_boolop n = true /\ is_and n = a /\ cs <> [] /\ Forall (grp a) cs.
Proof. cbn [grp]. rewrite (all_Forall (grp a)). reflexivity. Qed.

Definition isvar (t : tree) : bool := match t with TVar _ _ => true | _ => false end.

Lemma gleaves_vars a : forall t, grp a t -> Forall (fun x => isvar x = true) (gleaves t).
Proof.
  induction t as [v|n k|n f cs IH|c x y _ _ _] using tree_ind2; intros H; try (cbn [grp] in H; contradiction).
  - repeat constructor.
  - destruct f; [cbn [grp] in H; contradiction|]. apply grp_op in H. destruct H as (_ & _ & _ & Hc). rewrite gleaves_op.
    induction IH as [|c cs' Hc' _ IHl]; [constructor|]. inversion Hc; subst. cbn [gleaves_list]. apply Forall_app. split; [apply Hc'; assumption|apply IHl; assumption].
Qed.

Section G.
  Variable custom : str -> list value -> res value.
  Variable cfg : config.

  Definition nonconst (t : tree) : bool := match t with TConst _ => false | _ => true end.

  Lemma fold_node_keep n cs : cs <> [] -> Forall (fun x => nonconst x = true) cs ->
    fst (fold_node custom cfg n false cs) = TOp n false cs.
  Proof.
    intros Hne Hnc. apply fold_node_fst; [reflexivity| |].
    - intros d _ Hin. rewrite Forall_forall in Hnc. discriminate (Hnc _ Hin).
    - intros [|v vs] r -> _; [destruct Hne; reflexivity|]. inversion Hnc. discriminate.
  Qed.

  Lemma grp_nonconst a t : grp a t -> nonconst t = true.
  Proof. destruct t; cbn [grp]; try contradiction; reflexivity. Qed.

  Lemma cfold_grp a : forall t, grp a t -> fst (cfold custom cfg t) = t.
  Proof.
    apply (pass_rel _ _ (cfold_pass custom cfg) (fun t t' => grp a t -> t' = t)); [auto| |intros ? ? ? ? ? ? _ _ _ []].
    intros n [|] cs cs' H Hg; [destruct Hg|]. apply grp_op in Hg. destruct Hg as (_ & _ & Hne & Hc).
    replace cs' with cs by (clear -H Hc; induction H; inversion Hc; f_equal; [symmetry|]; auto).
    apply fold_node_keep; [exact Hne|]. exact (Forall_impl _ (grp_nonconst a) Hc).
  Qed.

  Lemma flatten_vars a l : Forall (fun x => isvar x = true) l -> flatten a l = Some l.
  Proof. induction 1 as [|c l Hc _ IH]; [reflexivity|]. destruct c; try discriminate. cbn [flatten]. rewrite IH. reflexivity. Qed.

  Lemma flatten_app_vars a l r rest : Forall (fun x => isvar x = true) l -> flatten a rest = Some r -> flatten a (l ++ rest) = Some (l ++ r).
  Proof. induction 1 as [|c l Hc _ IH]; intros Hr; [exact Hr|]. destruct c; try discriminate. cbn [app flatten]. rewrite (IH Hr). reflexivity. Qed.

  Lemma nest_grp a : forall t, grp a t ->
    nest t = match t with TOp n _ _ => TOp n false (gleaves t) | _ => t end.
  Proof.
    apply (pass_rel _ _ nest_pass (fun t t' => grp a t -> t' = match t with TOp n _ _ => TOp n false (gleaves t) | _ => t end));
      [intros [] H _; try discriminate H; reflexivity| |intros ? ? ? ? ? ? _ _ _ []].
    intros n [|] cs cs' H Hg; [destruct Hg|]. apply grp_op in Hg. destruct Hg as (Hb & Ha & _ & Hc).
    unfold nest_node. rewrite Hb, Ha, gleaves_op.
    replace (flatten a cs') with (Some (gleaves_list cs)); [reflexivity|]. symmetry.
    induction H as [|c c' cs cs' Hc' _ IH]; [reflexivity|]. inversion Hc as [|? ? Hgc Hgs]; subst.
    cbn [gleaves_list]. rewrite (Hc' Hgc). destruct c as [v|m k|m [|] ms|? ? ?]; try contradiction Hgc.
    - cbn [flatten gleaves app]. rewrite (IH Hgs). reflexivity.
    - apply grp_op in Hgc. destruct Hgc as (Hb2 & Ha2 & _ & _).
      cbn [flatten]. rewrite Hb2, Ha2, Bool.eqb_reflx, (IH Hgs). reflexivity.
  Qed.

  Lemma map_id_vars (f : tree -> tree) l : (forall n k, f (TVar n k) = TVar n k) -> Forall (fun x => isvar x = true) l -> map f l = l.
  Proof. intros Hf. induction 1 as [|c l Hc _ IH]; [reflexivity|]. destruct c; try discriminate. cbn [map]. rewrite Hf, IH. reflexivity. Qed.

  Definition two_leaves (l : list tree) : bool := match l with [a; b] => is_leaf a && is_leaf b | _ => false end.

  Lemma fastp_vars n l : Forall (fun x => isvar x = true) l -> fastp (TOp n false l) = TOp n (two_leaves l) l.
  Proof. intros H. cbn [fastp]. rewrite (map_id_vars fastp l (fun _ _ => eq_refl) H). reflexivity. Qed.

  Lemma reorder_vars n f l : is_boolop n = true -> Forall (fun x => isvar x = true) l ->
    reorder cfg (TOp n f l) = TOp n f (sort_by (cost cfg) l).
  Proof. intros Hb H. unfold reorder. cbn [reorder_with]. rewrite (map_id_vars _ l (fun _ _ => eq_refl) H), Hb. reflexivity. Qed.

  Hypothesis all_on : forall name, pass_on cfg name = true.

  Theorem optimize_group a n cs : grp a (TOp n false cs) ->
    optimize custom cfg (TOp n false cs) =
    TOp n (two_leaves (gleaves_list cs)) (sort_by (cost cfg) (gleaves_list cs)).
  Proof.
    intros H. pose proof (gleaves_vars a _ H) as Hv. rewrite gleaves_op in Hv.
    pose proof H as H0. apply grp_op in H0. destruct H0 as (Hb & _ & _ & _).
    rewrite optimize_passes, !all_on. cbv zeta.
    rewrite (cfold_grp a _ H), (nest_grp a _ H), gleaves_op, (fastp_vars n _ Hv). apply (reorder_vars n _ _ Hb Hv).
  Qed.
End G.

Print Assumptions optimize_group.

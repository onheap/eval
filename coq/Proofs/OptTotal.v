(* OptTotal.v — C02, second clause: when evaluating every reachable operand succeeds, ALL configurations (any subset
   of the four optimisations, Reordering included, any cost map, any stateless declarations) return that value.
   "Every reachable operand succeeds" is `rok t = Some v`: the strict evaluation — all operands of every operator,
   whatever their order, and the taken branch of every `if` — succeeds with v. Every pass preserves it, and it
   implies that left-to-right short-circuit evaluation returns v. *)
Require Import Base Tree Opt OpsArith SemFacts Pass Fold Reorder OptSound OptValue ListFacts.
From Coq Require Import Permutation.
Open Scope Z_scope.
Open Scope list_scope.

Section R.
  Variable fetch : str -> Z -> res value.
  Variable custom : str -> list value -> res value.
  Notation apply_op := (apply_op custom).
  Notation val := (val fetch custom).

  Definition ro (r : res value) : option value := match r with Ok v => Some v | Err _ => None end.

  Fixpoint rok (t : tree) : option value :=
    match t with
    | TConst v => Some v
    | TVar n k => ro (fetch n k)
    | TOp name _ cs => match all_some (map rok cs) with Some vs => ro (apply_op name vs) | None => None end
    | TIf c t f => match rok c with Some (VBool true) => rok t | Some (VBool false) => rok f | _ => None end
    end.

  Lemma rok_op name f cs v : rok (TOp name f cs) = Some v <->
    exists vs, Forall2 (fun c x => rok c = Some x) cs vs /\ apply_op name vs = Ok v.
  Proof.
    cbn [rok]. split.
    - destruct (all_some (map rok cs)) as [vs|] eqn:E; [|discriminate]. intros H. exists vs.
      split; [apply all_some_Forall2; exact E|]. destruct (apply_op name vs); inversion H; reflexivity.
    - intros (vs & HF & Ha). apply all_some_Forall2 in HF. rewrite HF, Ha. reflexivity.
  Qed.

  Lemma rok_if_inv c t f v : rok (TIf c t f) = Some v -> exists b, rok c = Some (VBool b) /\ rok (if b then t else f) = Some v.
  Proof.
    cbn [rok]. destruct (rok c) as [[z|[]|s|li|ls|si|ss'| | |o]|]; try discriminate; intros H; [exists true|exists false]; auto.
  Qed.

  Definition bval (d : bool) (bs : list bool) : bool := if existsb (Bool.eqb d) bs then d else negb d.

  Lemma boolop_bools name d bs : op_kind name = Some d -> (2 <= length bs)%nat ->
    apply_op name (bools bs) = Ok (VBool (bval d bs)).
  Proof. apply boolop_apply. Qed.

  Lemma boolop_perm name d vs vs' v : op_kind name = Some d -> Permutation vs vs' ->
    apply_op name vs = Ok v -> apply_op name vs' = Ok v.
  Proof.
    intros Hk Hp Ha. destruct (boolop_inv custom name d vs v Hk Ha) as (bs & -> & Hl & ->).
    destruct (Permutation_map_inv _ _ (Permutation_sym Hp)) as (bs' & -> & Hb). fold (bools bs').
    rewrite (boolop_bools name d bs' Hk) by (rewrite <- (Permutation_length Hb); exact Hl).
    unfold bval. rewrite (existsb_perm _ _ _ Hb). reflexivity.
  Qed.

  Theorem rok_val : forall t v, rok t = Some v -> val t = Ok v.
  Proof.
    induction t as [v0|n k|name fast cs IH|c t f IHc IHt IHf] using tree_ind2; intros v H.
    - inversion H. reflexivity.
    - cbn [rok] in H. unfold OptValue.val. cbn [sem snd]. destruct (fetch n k); [inversion H; reflexivity|discriminate].
    - apply rok_op in H. destruct H as (vs & HF & Ha).
      assert (HV : Forall2 (fun x c => val c = Ok x) vs cs) by (clear -IH HF; induction HF; inversion IH; constructor; auto).
      destruct (fast_shape fast cs) eqn:Hfs; [|rewrite val_op by exact Hfs; exact (vargs_strict fetch custom name vs cs v HV Ha)].
      destruct (fast_shape_inv _ _ Hfs) as (a & b & -> & _ & _ & ->). rewrite (val_fast fetch custom name a b Hfs).
      inversion HV as [|va ? ? ? Ea HV']. inversion HV' as [|vb ? ? ? Eb HV'']. inversion HV''. subst. rewrite Ea, Eb. exact Ha.
    - destruct (rok_if_inv _ _ _ _ H) as (b & Ec & Eb). rewrite val_if, (IHc _ Ec). destruct b; [apply IHt|apply IHf]; exact Eb.
  Qed.

  Definition rok_le (t t' : tree) : Prop := forall v, rok t = Some v -> rok t' = Some v.

  Theorem rok_pass p node : is_pass p node -> (forall n f cs, rok_le (TOp n f cs) (node n f cs)) -> forall t, rok_le t (p t).
  Proof.
    intros Hp Hn. apply (pass_rel p node Hp rok_le).
    - intros t _ v H. exact H.
    - intros n f cs cs' HF v H. apply Hn. apply rok_op in H. destruct H as (vs & Hv & Ha).
      apply rok_op. exists vs. split; [|exact Ha].
      clear -HF Hv. revert vs Hv. induction HF; intros vs Hv; inversion Hv; constructor; auto.
    - intros c t f c' t' f' Hc Ht Hf v H. destruct (rok_if_inv _ _ _ _ H) as (b & Ec & Eb).
      cbn [rok]. rewrite (Hc _ Ec). destruct b; auto.
  Qed.

  Lemma rok_fastp : forall t, rok (fastp t) = rok t.
  Proof.
    apply (pass_rel _ _ fastp_pass (fun t t' => rok t' = rok t)); [reflexivity| |].
    - intros n f cs cs' H. cbn [rok]. rewrite (Forall2_map_eq rok rok (fun _ _ E => E) H). reflexivity.
    - intros c t f c' t' f' Hc Ht Hf. cbn [rok]. rewrite Hc, Ht, Hf. reflexivity.
  Qed.

  Lemma rok_reorder sorter : (forall l, Permutation (sorter l) l) -> forall t, rok_le t (reorder_with sorter t).
  Proof.
    intros Hs. apply (rok_pass _ _ (reorder_pass sorter)). intros n f cs v H.
    destruct (op_kind n) as [d|] eqn:Hk; [|rewrite (op_kind_none _ Hk); exact H]. rewrite (op_kind_boolop _ _ Hk).
    apply rok_op in H. destruct H as (vs & HF & Ha).
    destruct (Permutation_Forall2 (Permutation_sym (Hs cs)) HF) as (vs' & Hp & HF').
    apply rok_op. exists vs'. split; [exact HF'|exact (boolop_perm n d vs vs' v Hk Hp Ha)].
  Qed.

  Lemma flatten_rok d : forall cs l, flatten (negb d) cs = Some l ->
    forall bs, Forall2 (fun c x => rok c = Some x) cs (bools bs) ->
    exists bl, Forall2 (fun c x => rok c = Some x) l (bools bl) /\ (length bs <= length bl)%nat /\ bval d bl = bval d bs.
  Proof.
    apply (flatten_ind d (fun cs l => forall bs, Forall2 _ cs (bools bs) -> exists bl, Forall2 _ l (bools bl) /\ _)).
    - intros bs H. exists bs. auto.
    - intros c cs l _ IH [|b bs] H; inversion H as [|? ? ? ? Hc Hr]; subst. destruct (IH bs Hr) as (bl & F & L & E).
      exists (b :: bl). split; [constructor; assumption|]. split; [cbn [length]; lia|].
      unfold bval in *. cbn [existsb]. destruct (Bool.eqb d b); [reflexivity|exact E].
    - intros n f gcs cs l Hk IH [|b bs] H; inversion H as [|? ? ? ? Hg Hr]; subst. destruct (IH bs Hr) as (bl & F & L & E).
      apply rok_op in Hg. destruct Hg as (gv & Fg & Ha). destruct (boolop_inv custom n d gv _ Hk Ha) as (gb & -> & Lg & Eb).
      inversion Eb; subst b. exists (gb ++ bl). unfold bools. rewrite map_app. split; [apply Forall2_app; assumption|].
      split; [rewrite app_length; cbn [length]; lia|]. unfold bval in *. rewrite existsb_app. cbn [existsb].
      destruct (existsb (Bool.eqb d) gb); cbn [orb]; [rewrite Bool.eqb_reflx; reflexivity|]. destruct d; exact E.
  Qed.

  Lemma rok_nest : forall t, rok_le t (nest t).
  Proof.
    apply (rok_pass _ _ nest_pass). intros n f cs v. apply nest_node_cases; [auto|]. intros d l Hk Ef H.
    apply rok_op in H. destruct H as (vs & HF & Ha). destruct (boolop_inv custom n d vs v Hk Ha) as (bs & -> & Hl & ->).
    destruct (flatten_rok d cs l Ef bs HF) as (bl & F & L & E).
    apply rok_op. exists (bools bl). split; [exact F|]. rewrite (boolop_bools n d bl Hk) by lia. rewrite E. reflexivity.
  Qed.

  Variable cfg : config.

  Lemma rok_cfold : forall t, rok_le t (fst (cfold custom cfg t)).
  Proof.
    apply (rok_pass _ _ (cfold_pass custom cfg)). intros n f cs v H. apply fold_node_fst; [exact H| |].
    - (* `rok` does not look at the fast mark; without it the node evaluates left to right, up to the decider *)
      intros d Hk Hin. apply (rok_val (TOp n false cs)) in H. rewrite val_op in H by reflexivity.
      rewrite (vargs_decider fetch custom n d Hk cs Hin [] v H). reflexivity.
    - intros vs r -> Ha. cbn [rok] in H. rewrite map_map in H. change (fun x => rok (TConst x)) with (@Some value) in H.
      rewrite all_some_map, Ha in H. exact H.
  Qed.

  Lemma rok_optimize t : rok_le t (optimize custom cfg t).
  Proof.
    apply optimize_rel; [intros ? ? H; exact H|intros a b c H1 H2 v H; exact (H2 v (H1 v H))|exact rok_cfold|exact rok_nest| |].
    - intros t0 v H. rewrite rok_fastp. exact H.
    - apply rok_reorder. intros l. apply sort_perm.
  Qed.

  Theorem all_configurations_return t v : rok t = Some v -> val (optimize custom cfg t) = Ok v.
  Proof. intros H. apply rok_val. apply rok_optimize. exact H. Qed.
End R.

Print Assumptions all_configurations_return.

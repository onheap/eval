(* FormatInfix.v — C14, the formatter in EITHER notation, for any input. The lexer is a notation-independent
   segmentation of the text into raw pieces (comments, string literals, delimiters, words) followed by a per-word
   classification, and only the classification knows the notation (the `!ident` split of infix notation). The
   segmentation is the prefix lexer itself under the letter classification L0 "every word character except the double
   quote is a letter", which accepts every quote-free word as one token whose text is the word:
   lex infix s = recl_all infix (lex_{L0} false s)  (`lex_factor`). The theorems of FormatProofs.v and FormatReject.v hold
   for every classification under which the quote is neither letter nor number, so for L0, and reclassification
   commutes with the one change the formatter makes to the token list (`recl_trim_last`). This covers the glued
   `!ident` spelling that `wf_items` excludes. *)
Require Import Base Lexer Print LexProofs FormatProofs FormatReject.
Open Scope Z_scope.
Open Scope list_scope.

Definition L0 (c : N) : bool := wordc c && negb (c =? 34)%N.
Definition N0 (c : N) : bool := false.

Lemma L0_q : L0 34%N = false. Proof. reflexivity. Qed.
Lemma N0_q : N0 34%N = false. Proof. reflexivity. Qed.

Lemma ident_scan_L0 whole : forall s idx pd last, Forall (fun r => L0 r = true) s -> ident_scan L0 N0 whole s idx pd last = true.
Proof.
  induction s as [|r s IH]; intros idx pd last H; [reflexivity|]. cbn [ident_scan]. inversion H as [|? ? Hr Hs]; subst.
  rewrite Hr. apply IH. exact Hs.
Qed.

Lemma notin_cons (c : N) w : ~ In 34%N (c :: w) -> c <> 34%N /\ ~ In 34%N w.
Proof. intros H. split; [intros E; apply H; left; exact E|intros Hin; apply H; right; exact Hin]. Qed.

Lemma L0_all c w : wordc c = true -> Forall (fun c => wordc c = true) w -> ~ In 34%N (c :: w) -> Forall (fun r => L0 r = true) (c :: w).
Proof.
  intros Hc Hw Hn. assert (A : Forall (fun c => wordc c = true) (c :: w)) by (constructor; assumption).
  rewrite Forall_forall in *. intros r Hr. unfold L0. rewrite (A r Hr). cbn [andb]. apply negb_true_iff. apply N.eqb_neq.
  intros ->. exact (Hn Hr).
Qed.

Lemma L0_word_accept c w : wordc c = true -> Forall (fun c => wordc c = true) w -> ~ In 34%N (c :: w) ->
  classify L0 N0 false (c :: w) = Some [KInt (c :: w)] \/ classify L0 N0 false (c :: w) = Some [KIdent (c :: w)].
Proof.
  intros Hc Hw Hn. rewrite (classify_word L0 N0 c w Hc). destruct (valid_int (c :: w)); [left; reflexivity|]. right.
  unfold valid_ident. rewrite ident_scan_L0 by (apply L0_all; assumption). reflexivity.
Qed.

Section R.
  Variable il inn : N -> bool.
  Hypothesis letter_q : il 34%N = false.
  Hypothesis number_q : inn 34%N = false.
  Notation cls := (classify il inn).

  Definition recl (infix : bool) (t : tok) : option (list tok) :=
    match t with KInt w | KIdent w => cls infix w | _ => Some [t] end.

  Fixpoint recl_all (infix : bool) (l : list tok) : option (list tok) :=
    match l with
    | [] => Some []
    | t :: l' => match recl infix t with
                 | None => None
                 | Some ts => match recl_all infix l' with Some r => Some (ts ++ r) | None => None end
                 end
    end.

  Lemma recl_all_app infix a b : recl_all infix (a ++ b) =
    match recl_all infix a with
    | None => None
    | Some x => match recl_all infix b with Some y => Some (x ++ y) | None => None end
    end.
  Proof.
    induction a as [|t a IH]; cbn [app recl_all].
    - destruct (recl_all infix b); reflexivity.
    - destruct (recl infix t) as [ts|]; [|reflexivity]. rewrite IH. destruct (recl_all infix a) as [x|]; [|reflexivity].
      destruct (recl_all infix b) as [y|]; [|reflexivity]. rewrite app_assoc. reflexivity.
  Qed.

  Lemma recl_other infix t : is_word_tok t = false -> recl infix t = Some [t].
  Proof. destruct t; try discriminate; reflexivity. Qed.

  Lemma word_step infix c w : wordc c = true -> Forall (fun c => wordc c = true) w ->
    match classify L0 N0 false (c :: w) with
    | None => cls infix (c :: w) = None
    | Some ts0 => exists t0, ts0 = [t0] /\ recl infix t0 = cls infix (c :: w)
    end.
  Proof.
    intros Hc Hw. destruct (in_dec N.eq_dec 34%N (c :: w)) as [Hin|Hn].
    - rewrite (classify_quote_none L0 N0 L0_q N0_q c w Hc Hin). destruct (cls infix (c :: w)) as [ts|] eqn:E; [|reflexivity].
      destruct (classify_noquote il inn letter_q number_q infix _ ts E Hin).
    - destruct (L0_word_accept c w Hc Hw Hn) as [E|E]; rewrite E; eexists; (split; [reflexivity|reflexivity]).
  Qed.

  Lemma delim_step infix c : is_delim c = true -> c <> 59%N ->
    exists t, classify L0 N0 false [c] = Some [t] /\ cls infix [c] = Some [t] /\ recl infix t = Some [t].
  Proof.
    intros Hd H59. destruct (delim_token c Hd H59) as (t & _ & Hw & _ & Hcl). exists t.
    split; [apply Hcl|split; [apply Hcl|apply recl_other; exact Hw]].
  Qed.

  Theorem lex_factor : forall fuel infix s,
    lex_loop il inn fuel infix s =
    match lex_loop L0 N0 fuel false s with Some raws => recl_all infix raws | None => None end.
  Proof.
    induction fuel as [|f IH]; intros infix s; [reflexivity|]. cbn [Lexer.lex_loop].
    pose proof (next_raw_inv s) as R. destruct (next_raw s) as [[a|a|w| |] b]; try reflexivity; rewrite IH.
    - destruct (lex_loop L0 N0 f false b) as [l|]; [|reflexivity]. cbn [recl_all recl]. destruct (recl_all infix l); reflexivity.
    - destruct (lex_loop L0 N0 f false b) as [l|]; [|reflexivity]. cbn [recl_all recl]. destruct (recl_all infix l); reflexivity.
    - destruct R as (_ & [(c & -> & Hd & H59)|(c & w' & -> & (Hc & _ & _ & Hw) & _)]).
      + destruct (delim_step infix c Hd H59) as (t & E1 & E2 & E3). rewrite E1, E2.
        destruct (lex_loop L0 N0 f false b) as [l|]; [|reflexivity]. cbn [app recl_all]. rewrite E3. reflexivity.
      + pose proof (word_step infix c w' Hc Hw) as WS. destruct (classify L0 N0 false (c :: w')) as [ts0|]; [|rewrite WS; reflexivity].
        destruct WS as (t0 & -> & Er). destruct (lex_loop L0 N0 f false b) as [l|].
        * cbn [app recl_all]. rewrite Er. reflexivity.
        * destruct (cls infix (c :: w')); reflexivity.
  Qed.

  Lemma recl_nocomment infix t ts : is_comment t = false -> recl infix t = Some ts ->
    ts <> [] /\ Forall (fun u => is_comment u = false) ts.
  Proof.
    intros Hc H. assert (C : forall w, cls infix w = Some ts -> ts <> [] /\ Forall (fun u => is_comment u = false) ts).
    { intros w Hw. destruct (classify_inv il inn infix w ts Hw); (split; [discriminate|repeat constructor; assumption]). }
    destruct t; cbn [recl] in H; try discriminate Hc; try exact (C _ H); injection H as <-; (split; [discriminate|repeat constructor]).
  Qed.

  Lemma recl_trim_last infix raws :
    recl_all infix (trim_last raws) = option_map trim_last (recl_all infix raws).
  Proof.
    induction raws as [|t a _] using rev_ind; [reflexivity|]. rewrite trim_last_snoc, !recl_all_app.
    destruct (recl_all infix a) as [x|]; [|reflexivity]. destruct (is_comment t) eqn:Hc.
    - destruct t; try discriminate. cbn [trim_tok recl_all recl app option_map]. rewrite trim_last_snoc. reflexivity.
    - rewrite (trim_tok_other t Hc). cbn [recl_all]. destruct (recl infix t) as [ts|] eqn:Er; [|reflexivity]. cbn [option_map].
      destruct (recl_nocomment infix t ts Hc Er) as [Hne HF]. destruct (exists_last Hne) as (ts' & u & ->).
      apply Forall_app in HF. destruct HF as [_ HF]. rewrite app_nil_r, app_assoc, trim_last_snoc, (trim_tok_other u (Forall_inv HF)). reflexivity.
  Qed.

  Theorem indent_lex_any infix s :
    lex il inn infix (indent_by_parens s) = option_map trim_last (lex il inn infix s).
  Proof.
    unfold lex. rewrite !lex_factor. fold (lex L0 N0 false (indent_by_parens s)). fold (lex L0 N0 false s).
    destruct (lex L0 N0 false s) as [raws|] eqn:E.
    - rewrite (indent_lexable L0 N0 L0_q N0_q s raws E). apply recl_trim_last.
    - rewrite (indent_rejected L0 N0 L0_q N0_q s E). reflexivity.
  Qed.

  Corollary indent_tokens_any infix s toks : lex il inn infix s = Some toks ->
    lex il inn infix (indent_by_parens s) = Some (trim_last toks).
  Proof. intros H. rewrite indent_lex_any, H. reflexivity. Qed.

  Corollary indent_rejected_any infix s : lex il inn infix s = None -> lex il inn infix (indent_by_parens s) = None.
  Proof. intros H. rewrite indent_lex_any, H. reflexivity. Qed.

  Corollary indent_meaning_any infix s :
    option_map drop_comments (lex il inn infix (indent_by_parens s)) = option_map drop_comments (lex il inn infix s).
  Proof. rewrite indent_lex_any. destruct (lex il inn infix s) as [toks|]; [|reflexivity]. cbn [option_map]. rewrite trim_last_drop. reflexivity. Qed.

  (* the segmentation does not depend on the notation: a source is accepted in infix notation exactly when its raw
     pieces reclassify, and the tokens of the two notations are reclassifications of one raw token list *)
  Corollary lex_two_notations s raws : lex L0 N0 false s = Some raws ->
    lex il inn false s = recl_all false raws /\ lex il inn true s = recl_all true raws.
  Proof. intros H. unfold lex in *. rewrite !lex_factor, H. split; reflexivity. Qed.

  Lemma recl_drop infix raws : option_map drop_comments (recl_all infix raws) = recl_all infix (drop_comments raws).
  Proof.
    induction raws as [|t l IH]; [reflexivity|].
    destruct (is_comment t) eqn:Hc.
    - destruct t; try discriminate. change (drop_comments (KComment s :: l)) with (drop_comments l). rewrite <- IH.
      cbn [recl_all recl]. destruct (recl_all infix l) as [r|]; reflexivity.
    - assert (Ed : drop_comments (t :: l) = t :: drop_comments l) by (unfold drop_comments; cbn [filter]; rewrite Hc; reflexivity).
      rewrite Ed. cbn [recl_all]. destruct (recl infix t) as [ts|] eqn:Er; [|reflexivity]. rewrite <- IH.
      destruct (recl_all infix l) as [r|]; [|reflexivity]. cbn [option_map].
      rewrite drop_comments_app, (drop_comments_id ts (proj2 (recl_nocomment infix t ts Hc Er))). reflexivity.
  Qed.

  (* every source the lexer accepts - in either notation - is white space followed by a well-formed rendering of its raw
     pieces, and its tokens are the reclassification of those pieces. Well formed for the segmentation (`wf_items L0 N0
     false`), not for `il`, `inn`, `infix`: a glued `!ident` is one piece and two tokens, so no rendering of its tokens *)
  Theorem lex_accepts_rendering infix s toks : lex il inn infix s = Some toks ->
    exists lead items, s = lead ++ render items /\ all_space lead /\ wf_items L0 N0 false items /\
                       recl_all infix (map fst items) = Some toks.
  Proof.
    intros H. unfold lex in H. rewrite lex_factor in H.
    destruct (lex_loop L0 N0 (S (length s)) false s) as [raws|] eqn:E; [|discriminate].
    destruct (lex_complete L0 N0 _ s raws E) as (lead & items & Es & Hl & Hwf & Em).
    exists lead, items. rewrite Em. repeat split; assumption.
  Qed.

  Lemma lex_layout infix lead items : all_space lead -> wf_items L0 N0 false items ->
    lex il inn infix (lead ++ render items) = recl_all infix (map fst items).
  Proof.
    intros Hl Hwf. unfold lex. rewrite lex_factor. fold (lex L0 N0 false (lead ++ render items)).
    rewrite (lex_rendering L0 N0 false lead items Hl Hwf). reflexivity.
  Qed.

  (* two layouts of the same raw pieces - any white space, empty only where two words would fuse - give the same tokens *)
  Theorem layout_invariance_any infix lead1 lead2 items1 items2 :
    all_space lead1 -> all_space lead2 ->
    wf_items L0 N0 false items1 -> wf_items L0 N0 false items2 -> map fst items1 = map fst items2 ->
    lex il inn infix (lead1 ++ render items1) = lex il inn infix (lead2 ++ render items2).
  Proof. intros Hl1 Hl2 H1 H2 E. rewrite !lex_layout, E by assumption. reflexivity. Qed.

  (* comments anywhere between the raw pieces never change what the parser is given *)
  Theorem layout_invariance_comments_any infix lead1 lead2 items1 items2 :
    all_space lead1 -> all_space lead2 ->
    wf_items L0 N0 false items1 -> wf_items L0 N0 false items2 ->
    drop_comments (map fst items1) = drop_comments (map fst items2) ->
    option_map drop_comments (lex il inn infix (lead1 ++ render items1)) =
    option_map drop_comments (lex il inn infix (lead2 ++ render items2)).
  Proof. intros Hl1 Hl2 H1 H2 E. rewrite !lex_layout, !recl_drop, E by assumption. reflexivity. Qed.
End R.

Print Assumptions indent_lex_any.
Print Assumptions layout_invariance_any.

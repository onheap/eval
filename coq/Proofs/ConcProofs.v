(* ConcProofs.v — C07: the Eval loop is iteration of a step on private state; any interleaving of the steps of
   any number of calls over one shared program gives every call exactly its isolated result. *)
Require Import Base Flat Run Conc EvalDefs.
Open Scope Z_scope.
Open Scope list_scope.

Section S.
  Variable fetch : str -> Z -> res value.
  Variable custom : str -> list value -> res value.
  Variable P : prog.

  Definition resume (k : Z -> list value -> list obs * mres) (s : stepres) : list obs * mres :=
    match s with SNext i stk tr => preM tr (k i stk) | SDone tr r => (tr, r) end.

  Lemma resume_preS k t s : resume k (preS t s) = preM t (resume k s).
  Proof. destruct s; cbn [preS resume]; [rewrite preM_app; reflexivity|reflexivity]. Qed.

  Lemma resume_next k i stk : k i stk = resume k (SNext i stk []).
  Proof. symmetry. apply preM_nil. Qed.

  Lemma resume_push k next stk v :
    match push P stk v with Some s => k next s | None => ([], MPanic 10) end =
    resume k (match push P stk v with Some s => SNext next s [] | None => SDone [] (MPanic 10) end).
  Proof. destruct (push P stk v); [apply resume_next|reflexivity]. Qed.

  Lemma after_afterS k next nd v stk : after P k next nd v stk = resume k (afterS P next nd v stk).
  Proof.
    unfold after, afterS. destruct v; try apply resume_push.
    destruct (matches nd b); [|apply resume_push].
    destruct (chain P (length (nodes P)) (scIdx nd) b); try reflexivity.
    destruct ((osTop nd0 <? 0) || (lenZ stk <? osTop nd0)); [reflexivity|apply resume_push].
  Qed.

  Lemma after_res k t next nd stk (r : res value) :
    preM t match r with Err e => ([], MErr e) | Ok v => after P k next nd v stk end =
    resume k (preS t match r with Err e => SDone [] (MErr e) | Ok v => afterS P next nd v stk end).
  Proof. rewrite resume_preS. destruct r; [rewrite after_afterS|]; reflexivity. Qed.

  Theorem run_is_iterated_step f i stk :
    run fetch custom P (S f) i stk = resume (run fetch custom P f) (istep fetch custom P i stk).
  Proof.
    cbn [run]. unfold istep. destruct (psize P <=? i); [reflexivity|].
    destruct (getn P i) as [nd|]; [|reflexivity]. destruct (kind nd).
    - apply after_afterS.
    - apply after_res.
    - cbv zeta. destruct ((childCnt nd <? 0) || (lenZ stk <? childCnt nd)); [reflexivity|apply after_res].
    - destruct (getn P (i + 1)); [|reflexivity]. destruct (getn P (i + 2)); [|reflexivity].
      destruct (fast_leaf fetch n) as [t1 [va|e1]]; [|reflexivity].
      destruct (fast_leaf fetch n0) as [t2 [vb|e2]]; [|reflexivity].
      apply after_res.
    - destruct (rev stk) as [|c below]; [reflexivity|]. destruct c as [|[]| | | | | | | |]; try reflexivity.
      + apply resume_next.
      + destruct ((osTop nd + 1 <? 0) || (lenZ below <? osTop nd + 1)); [reflexivity|apply resume_next].
    - destruct stk; [reflexivity|]. destruct ((osTop nd + 1 <? 0) || (lenZ (v :: stk) <? osTop nd + 1)); [reflexivity|apply resume_next].
    - reflexivity.
  Qed.
End S.

Section I.
  Variable custom : str -> list value -> res value.
  Variable P : prog.

  Notation step := (call_step custom P).

  Fixpoint count (n : nat) (sched : list nat) : nat :=
    match sched with [] => 0%nat | m :: s => ((if Nat.eqb m n then 1 else 0) + count n s)%nat end.

  Lemma update_nth {A} (l : list A) n f m :
    nth_error (update l n f) m = if Nat.eqb n m then option_map f (nth_error l m) else nth_error l m.
  Proof.
    revert n m. induction l as [|x l IH]; intros n m; cbn [update].
    - destruct (Nat.eqb n m); destruct m; reflexivity.
    - destruct n as [|n], m as [|m]; cbn [nth_error Nat.eqb option_map]; try reflexivity. apply IH.
  Qed.

  Lemma iter_call_step k c : iter_call custom P k (step c) = step (iter_call custom P k c).
  Proof. revert c. induction k as [|k IH]; intros c; cbn [iter_call]; [reflexivity|]. rewrite IH. reflexivity. Qed.

  Theorem interleaving_isolated : forall sched calls n c,
    nth_error calls n = Some c ->
    nth_error (sys_run custom P calls sched) n = Some (iter_call custom P (count n sched) c).
  Proof.
    unfold sys_run. induction sched as [|m sched IH]; intros calls n c H; cbn [fold_left count iter_call]; [exact H|].
    destruct (Nat.eqb m n) eqn:E.
    - apply Nat.eqb_eq in E. subst m. cbn [Nat.add]. rewrite (IH _ n (step c)).
      + cbn [iter_call]. reflexivity.
      + rewrite update_nth, Nat.eqb_refl, H. reflexivity.
    - cbn [Nat.add]. apply IH. rewrite update_nth, E. exact H.
  Qed.

  Lemma step_finished c tr r : c_state c = Finished tr r -> step c = c.
  Proof. intros H. unfold call_step. rewrite H. reflexivity. Qed.

  Lemma iter_finished k c tr r : c_state c = Finished tr r -> iter_call custom P k c = c.
  Proof. intros H. induction k as [|k IH]; cbn [iter_call]; [reflexivity|]. rewrite (step_finished c tr r H). exact IH. Qed.

  Lemma iter_add a b c : iter_call custom P (a + b) c = iter_call custom P b (iter_call custom P a c).
  Proof. revert c. induction a as [|a IH]; intros c; cbn [Nat.add iter_call]; [reflexivity|]. apply IH. Qed.

  Lemma iter_fetch k : forall c, c_fetch (iter_call custom P k c) = c_fetch c.
  Proof. induction k as [|k IHk]; intros c; cbn [iter_call]; [reflexivity|]. rewrite IHk. unfold call_step. destruct (c_state c); reflexivity. Qed.

  Lemma iter_run f : forall fuel k i stk tr, (fuel <= k)%nat -> snd (run f custom P fuel i stk) <> MFuel ->
    iter_call custom P k {| c_fetch := f; c_state := Running i stk tr |} =
      {| c_fetch := f; c_state := Finished (tr ++ fst (run f custom P fuel i stk)) (snd (run f custom P fuel i stk)) |}.
  Proof.
    induction fuel as [|fuel IH]; intros k i stk tr Hk Hnf; [destruct Hnf; reflexivity|].
    destruct k as [|k]; [inversion Hk|]. apply le_S_n in Hk. cbn [iter_call]. unfold call_step. cbn [c_state c_fetch].
    rewrite run_is_iterated_step in *. destruct (istep f custom P i stk) as [i' stk' t|t r]; cbn [resume] in *.
    - rewrite (IH k i' stk' (tr ++ t) Hk Hnf), <- app_assoc. reflexivity.
    - apply (iter_finished k _ (tr ++ t) r). reflexivity.
  Qed.

  (* a call that has been given at least len(nodes)+1 iterations has finished with exactly the observation trace
     and outcome of Eval run in isolation (when Eval's own loop bound suffices, which run_compile_correct shows
     for every compiled tree) *)
  Theorem call_finishes_with_eval f k : snd (eval f custom P) <> MFuel -> (S (length (nodes P)) <= k)%nat ->
    iter_call custom P k (new_call f) = {| c_fetch := f; c_state := Finished (fst (eval f custom P)) (snd (eval f custom P)) |}.
  Proof. intros Hnf Hk. exact (iter_run f _ k 0 [] [] Hk Hnf). Qed.

  (* C07: every call of a system over one shared program, under ANY interleaving that schedules it at least
     len(nodes)+1 times, ends with what Eval returns in isolation, whatever the other calls do *)
  Theorem concurrent_calls_isolated sched fetches n f :
    nth_error fetches n = Some f -> snd (eval f custom P) <> MFuel ->
    (S (length (nodes P)) <= count n sched)%nat ->
    nth_error (sys_run custom P (map new_call fetches) sched) n =
      Some {| c_fetch := f; c_state := Finished (fst (eval f custom P)) (snd (eval f custom P)) |}.
  Proof.
    intros Hf Hnf Hc.
    assert (Hn : nth_error (map new_call fetches) n = Some (new_call f)) by (rewrite nth_error_map, Hf; reflexivity).
    rewrite (interleaving_isolated sched _ n _ Hn). f_equal. apply call_finishes_with_eval; assumption.
  Qed.
End I.

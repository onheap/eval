(* DumpStructE.v — C13/C12: Dump of the event-mode program. Event nodes are skipped by getChildIdxes, the real nodes
   keep their tree structure: `dump (compileE t)` is the same structural printing `show t` as for the plain program,
   so ReportEvent/Debug never change the decompiled program. *)
Require Import Flat FlatE EvalTop Print DumpStruct.
Open Scope Z_scope.
Open Scope list_scope.

Theorem dump_compileE t : dump (compileE t) = Some (fst (show t 0)).
Proof. rewrite compileE_progG. apply dump_progG. Qed.

Corollary dump_events_transparent t : dump (compileE t) = dump (compile t).
Proof. rewrite dump_compileE, dump_compile. reflexivity. Qed.

Print Assumptions dump_compileE.

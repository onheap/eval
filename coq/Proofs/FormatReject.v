(* FormatReject.v — C14, the formatter on sources the lexer REJECTS: the formatted text is rejected too. A rejected
   source is white space, a well-formed rendering of the tokens read so far, and a tail that starts with the offending
   token: a word that does not classify, or a string literal that is never closed. The formatter treats the good
   part as in FormatProofs.v (same simulation, carried with a tail) and leaves the offending token in place. *)
Require Import Base Directives Lexer Print LexProofs FormatProofs.
Open Scope Z_scope.
Open Scope list_scope.

(* a string literal (or a stray quote) at the head of `next` is met at a token start *)
Definition Jt (next : str) (b : str) (p : syn) : Prop :=
  match next with c :: _ => if (c =? 34)%N then tstart b p = true else True | [] => True end.

Fixpoint fstate (items : list (tok * str)) (b : str) (i : Z) (p : syn) : str * Z * syn :=
  match items with
  | [] => (b, i, p)
  | (t, sep) :: rest => fstate rest (rev (tok_text t ++ sep) ++ b) (tok_indent t i) (sp_prev sep (tok_prev t))
  end.

Section R.
  Variable is_letter is_number : N -> bool.
  Notation wf_tok := (wf_tok is_letter is_number).
  Notation lex_loop := (lex_loop is_letter is_number).

  Fixpoint wf_items_t (infix : bool) (tail : str) (items : list (tok * str)) : Prop :=
    match items with
    | [] => True
    | (t, sep) :: rest => wf_tok infix t /\ sep_ok t sep (render rest ++ tail) /\ wf_items_t infix tail rest
    end.

  Lemma J_next_t t sep next b : sep_ok t sep next -> Jt next (rev (tok_text t ++ sep) ++ b) (sp_prev sep (tok_prev t)).
  Proof.
    intros Hsep. destruct next as [|c next]; [exact I|]. cbn [Jt]. destruct (N.eqb_spec c 34) as [->|_]; [|exact I].
    exact (tstart_next t sep next b Hsep).
  Qed.

  Lemma Jt_str s more b p : Jt (34%N :: s ++ more) b p -> tstart b p = true.
  Proof. intros H. exact H. Qed.

  Theorem sim_t infix tail : tail <> [] -> forall items b out i p, wf_items_t infix tail items -> noq items ->
    Jt (render items ++ tail) b p ->
    fmt (render items ++ tail) b out i p =
      (let '(bE, iE, pE) := fstate items b i p in
       fmt tail bE (out ++ pre_of items b i p ++ render (fitems items b i p)) iE pE) /\
    (let '(bE, iE, pE) := fstate items b i p in Jt tail bE pE).
  Proof.
    intros _. induction items as [|[t sep] rest IH]; intros b out i p Hwf Hq HJ.
    - cbn [render pre_of fitems fstate app] in *. rewrite !app_nil_r. split; [reflexivity|exact HJ].
    - destruct Hwf as (Ht & Hsep & Hrest). inversion Hq as [|? ? Hq1 Hq2]; subst.
      assert (HJ1 : J [(t, sep)] b p) by (destruct t; try exact I; exact HJ).
      cbn [render pre_of fitems fstate]. rewrite <- !app_assoc.
      rewrite (fmt_item is_letter is_number infix t sep _ b out i p Ht Hsep (Forall_cons _ Hq1 (Forall_nil _)) HJ1).
      specialize (IH _ (out ++ prefix t b i p ++ tok_text t ++ suffix t sep) (tok_indent t i) _ Hrest Hq2 (J_next_t t sep _ b Hsep)).
      destruct (fstate rest _ (tok_indent t i) _) as [[bE iE] pE]. destruct IH as [E HJE]. split; [|exact HJE].
      rewrite E, <- !app_assoc. reflexivity.
  Qed.

  (* `pre_of` and `fitems` when more text follows: the last separator also holds what the formatter writes before the
     first character of the tail (a word character or a quote: `pre_rune`) *)
  Definition pre_of_t (rest : list (tok * str)) (b : str) (i : Z) (p : syn) : str :=
    match rest with [] => pre_rune i p | (u, _) :: _ => prefix u b i p end.

  Fixpoint fitems_t (items : list (tok * str)) (b : str) (i : Z) (p : syn) : list (tok * str) :=
    match items with
    | [] => []
    | (t, sep) :: rest =>
      let b' := rev (tok_text t ++ sep) ++ b in
      let i' := tok_indent t i in
      let p' := sp_prev sep (tok_prev t) in
      (t, suffix t sep ++ pre_of_t rest b' i' p') :: fitems_t rest b' i' p'
    end.

  Lemma fitems_t_toks items : forall b i p, map fst (fitems_t items b i p) = map fst items.
  Proof. induction items as [|[t sep] rest IH]; intros b i p; cbn [fitems_t map fst]; [reflexivity|]. rewrite IH. reflexivity. Qed.

  Lemma regroup items : forall b i p,
    pre_of items b i p ++ render (fitems items b i p) ++ (let '(_, iE, pE) := fstate items b i p in pre_rune iE pE) =
    pre_of_t items b i p ++ render (fitems_t items b i p).
  Proof.
    induction items as [|[t sep] rest IH]; intros b i p.
    - cbn [pre_of pre_of_t render fitems fitems_t fstate app]. rewrite app_nil_r. reflexivity.
    - cbn [pre_of pre_of_t render fitems fitems_t fstate]. f_equal. rewrite <- !app_assoc. do 2 f_equal.
      apply IH.
  Qed.

  Lemma stops_head a x y : stops (a :: x) -> stops (a :: y).
  Proof. exact (fun H => H). Qed.

  Lemma pre_of_t_space items b i p : all_space (pre_of_t items b i p).
  Proof. destruct items as [|[u su] r]; [apply pre_rune_space|apply prefix_space]. Qed.

  Theorem wf_out_t infix tail T : (exists c0 r, tail = c0 :: r /\ wordc c0 = true) -> (exists c1 r, T = c1 :: r /\ wordc c1 = true) ->
    forall items b i p, wf_items_t infix tail items -> wf_items_t infix T (fitems_t items b i p).
  Proof.
    intros (c0 & r0 & -> & Hc0) (c1 & r1 & -> & Hc1).
    induction items as [|[t sep] rest IH]; intros b i p Hwf; [exact I|]. destruct Hwf as (Ht & Hsep & Hrest).
    cbn [fitems_t wf_items_t]. split; [exact Ht|split; [|apply IH; exact Hrest]].
    apply (sep_ok_out t sep (render rest ++ c0 :: r0)); [exact Hsep|apply pre_of_t_space| |].
    - intros Hw E. destruct rest as [|[u su] r].
      + (* the tail starts with a word character, so the input had a separator, and a blank is written for it *)
        exfalso. destruct sep as [|c sep]; [destruct Hsep as (_ & Hfuse & _); specialize (Hfuse eq_refl Hw); cbn in Hfuse; congruence|].
        cbn [pre_of_t] in E. rewrite sp_prev_word in E by (exact Hw || discriminate). discriminate E.
      + destruct Hrest as (Hu & _). cbn [fitems_t render] in *. rewrite <- !app_assoc in *.
        exact (stops_next_tok is_letter is_number infix t sep u _ _ _ _ Hu Hsep Hw E).
    - intros E. apply app_eq_nil in E. destruct E as [_ E]. discriminate E.
  Qed.

  Theorem lex_render_none infix tail : (forall lead0 fuel, all_space lead0 -> lex_loop fuel infix (lead0 ++ tail) = None) ->
    forall items fuel lead, wf_items_t infix tail items -> all_space lead ->
    lex_loop fuel infix (lead ++ render items ++ tail) = None.
  Proof.
    intros Htail. induction items as [|[t sep] rest IH]; intros fuel lead Hwf Hlead.
    - apply Htail. exact Hlead.
    - destruct Hwf as (Ht & Hsep & Hrest). destruct fuel; [reflexivity|]. cbn [render]. rewrite <- !app_assoc.
      rewrite (lex_loop_item is_letter is_number infix t sep _ fuel lead Ht Hsep Hlead), IH; [reflexivity|exact Hrest|apply Hsep].
  Qed.
End R.

Lemma loop_extends : forall fuel s b out i p, exists Y, indent_loop fuel s b out i p = out ++ Y.
Proof.
  induction fuel as [|f IH]; intros s b out i p; [exists []; cbn; rewrite app_nil_r; reflexivity|].
  destruct s as [|c s']; [exists []; cbn; rewrite app_nil_r; reflexivity|]. rewrite loop_body.
  destruct (body_shape c s' b out i p) as (s1 & b1 & X & i1 & p1 & E & _). rewrite E.
  destruct (IH s1 b1 (out ++ X) i1 p1) as [Y EY]. exists (X ++ Y). rewrite EY, app_assoc. reflexivity.
Qed.

Lemma fmt_extends s b out i p : exists Y, fmt s b out i p = out ++ Y.
Proof. apply loop_extends. Qed.

Lemma fmt_unclosed rest b out i p : ~ In 34%N rest -> tstart b p = true ->
  fmt (34%N :: rest) b out i p = out ++ pre_rune i p ++ 34%N :: rest.
Proof.
  intros Hq Ht. rewrite fmt_cons. unfold body. rewrite Ht. cbn [N.eqb Pos.eqb andb].
  rewrite copy_through_end by exact Hq. rewrite fmt_nil. reflexivity.
Qed.

(* a quote inside a word (not at a token start) is an ordinary character *)
Lemma fmt_quote_mid more d b out i : d <> 44%N -> d <> 34%N ->
  fmt (34%N :: more) (d :: b) out i SNormal = fmt more (34%N :: d :: b) (out ++ [34%N]) i SNormal.
Proof.
  intros H1 H2. rewrite fmt_cons. unfold body. cbn [tstart syn_eqb negb orb].
  apply N.eqb_neq in H1, H2. rewrite H1, H2. reflexivity.
Qed.

(* one step on a character that is not white space writes white space X, then the character (and, for a literal or a
   comment, what it copies with it: cp); after white space in the input, X is empty only before a delimiter *)
Lemma fmt_first e r b out i p : is_space e = false ->
  exists X cp s' b' i' p', fmt (e :: r) b out i p = fmt s' b' (out ++ X ++ e :: cp) i' p' /\ all_space X /\
    (X = [] -> p = SSpace -> wordc e = false).
Proof.
  intros He. rewrite fmt_cons. unfold body. rewrite He.
  destruct ((e =? 34)%N && tstart b p).
  { destruct (copy_through 34 r) as [lit rest]. eexists (pre_rune i p), _, _, _, _, _.
    split; [reflexivity|split; [apply pre_rune_space|intros E ->; discriminate E]]. }
  destruct (is_left e).
  { eexists _, [], _, _, _, _. split; [reflexivity|split; [|intros E ->; discriminate E]].
    destruct (syn_eqb p SComment); [|constructor; [reflexivity|]]; apply indent_space. }
  destruct (is_right e) eqn:Er.
  { eexists _, [], _, _, _, _. split; [reflexivity|split; [destruct (syn_eqb p SComment); [apply indent_space|constructor]|]].
    intros _ _. destruct (wordc e) eqn:W; [|reflexivity]. destruct (wordc_class e W) as (_ & Er' & _). congruence. }
  destruct (e =? 59)%N eqn:E59.
  { apply N.eqb_eq in E59. subst e. cbn [copy_through N.eqb Pos.eqb]. destruct (copy_through 10 r) as [cm rest].
    eexists _, _, _, _, _, _. split; [reflexivity|split; [|intros _ _; reflexivity]].
    destruct (syn_eqb p SComment); [apply indent_space|apply look_back_space]. }
  eexists (pre_rune i p), [], _, _, _, _. split; [reflexivity|split; [apply pre_rune_space|intros E ->; discriminate E]].
Qed.

Lemma fmt_after_word more d b0 out i : stops more -> is_space d = false ->
  exists Y, fmt more (d :: b0) out i SNormal = out ++ Y /\ (Y = [] \/ exists y Y', Y = y :: Y' /\ wordc y = false).
Proof.
  intros Hst _. destruct (trim_left_split more) as (ws & Em & Hws). rewrite Em in Hst |- *. rewrite (fmt_spaces ws Hws).
  destruct (trim_left_head more) as [E|(e & r & E & He)]; rewrite E in *; clear E.
  - exists []. rewrite fmt_nil, app_nil_r. split; [reflexivity|left; reflexivity].
  - destruct (fmt_first e r (rev ws ++ d :: b0) out i (sp_prev ws SNormal) He) as (X & cp & s' & b' & i' & p' & E & HX & H0).
    destruct (fmt_extends s' b' (out ++ X ++ e :: cp) i' p') as [Y EY].
    exists (X ++ e :: cp ++ Y). split; [rewrite E, EY, <- !app_assoc; reflexivity|right].
    destruct HX as [|x X Hx _]; [|exists x, (X ++ e :: cp ++ Y); split; [reflexivity|apply space_not_word; exact Hx]].
    exists e, (cp ++ Y). split; [reflexivity|]. destruct ws as [|c ws]; [exact Hst|apply H0; reflexivity].
Qed.

Lemma first_quote w : In 34%N w -> exists u v, w = u ++ 34%N :: v /\ ~ In 34%N u.
Proof.
  intros H. pose proof (take_string_spec w) as T. destruct (take_string w) as [[u v]|]; [exists u, v; exact T|contradiction].
Qed.

Lemma rev_head_in (w : str) c b : exists d b0, rev (c :: w) ++ b = d :: b0 /\ In d (c :: w).
Proof.
  cbn [rev]. rewrite <- app_assoc. cbn [app]. destruct (rev w) as [|d r] eqn:E; [exists c, b; split; [reflexivity|left; reflexivity]|].
  exists d, (r ++ c :: b). split; [reflexivity|]. right. apply in_rev. rewrite E. left. reflexivity.
Qed.

Lemma fmt_word_last c u R b out i p : Forall (fun c => wordc c = true) (c :: u) -> ~ In 34%N (c :: u) ->
  exists d bb, wordc d = true /\ d <> 34%N /\
    fmt ((c :: u) ++ R) b out i p = fmt R (d :: bb) (out ++ pre_rune i p ++ c :: u) i SNormal.
Proof.
  intros Hw Hq. rewrite fmt_word by assumption. destruct (rev_head_in u c b) as (d & bb & -> & Hd). exists d, bb.
  rewrite Forall_forall in Hw. split; [exact (Hw d Hd)|split; [intros ->; exact (Hq Hd)|reflexivity]].
Qed.

Lemma take_string_none s : ~ In 34%N s -> take_string s = None.
Proof.
  intros H. pose proof (take_string_spec s) as T. destruct (take_string s) as [[a b]|]; [|reflexivity].
  destruct T as (-> & _). destruct H. apply in_elt.
Qed.

Lemma rtrim_stops Y : (Y = [] \/ exists y Y', Y = y :: Y' /\ wordc y = false) -> stops (rtrim Y).
Proof.
  intros H. destruct (rtrim_split Y) as (ws & E & _). destruct (rtrim Y) as [|y2 r2]; [exact I|].
  destruct H as [->|(y & Y' & -> & Hy)]; [discriminate|]. cbn [app] in E. inversion E; subst. exact Hy.
Qed.

Section RL.
  Variable is_letter is_number : N -> bool.
  Hypothesis letter_q : is_letter 34%N = false.
  Hypothesis number_q : is_number 34%N = false.
  Notation wf_items_t := (wf_items_t is_letter is_number).
  Notation lex_loop := (lex_loop is_letter is_number).
  Notation lex := (lex is_letter is_number).
  Notation classify := (classify is_letter is_number).

  Lemma lex_unclosed infix rest lead0 fuel : ~ In 34%N rest -> all_space lead0 ->
    lex_loop fuel infix (lead0 ++ 34%N :: rest) = None.
  Proof.
    intros Hq Hl. destruct fuel; [reflexivity|]. cbn [Lexer.lex_loop]. rewrite next_raw_spaces by exact Hl.
    unfold next_raw. cbn [trim_left]. change (is_space 34%N) with false. cbn [N.eqb Pos.eqb].
    rewrite take_string_none by exact Hq. reflexivity.
  Qed.

  Lemma lex_badword infix c w more lead0 fuel : word c w -> stops more -> classify infix (c :: w) = None -> all_space lead0 ->
    lex_loop fuel infix (lead0 ++ (c :: w) ++ more) = None.
  Proof.
    intros Hw Hm Hcl Hl. destruct fuel; [reflexivity|]. cbn [Lexer.lex_loop]. rewrite next_raw_spaces by exact Hl.
    rewrite next_raw_word by assumption. rewrite Hcl. reflexivity.
  Qed.

  Lemma classify_quote_none c w : wordc c = true -> In 34%N (c :: w) -> classify false (c :: w) = None.
  Proof.
    intros _ Hin. destruct (classify false (c :: w)) as [ts|] eqn:E; [|reflexivity].
    destruct (classify_noquote is_letter is_number letter_q number_q false _ ts E Hin).
  Qed.

  Lemma lex_badword_q c u more lead0 fuel : word c u -> all_space lead0 -> lex_loop fuel false (lead0 ++ (c :: u) ++ 34%N :: more) = None.
  Proof.
    intros Hw Hl. pose proof (take_word_spec more) as T. destruct (take_word more) as [v more']. destruct T as (-> & Hv & Hm).
    replace ((c :: u) ++ 34%N :: v ++ more') with ((c :: u ++ 34%N :: v) ++ more') by (cbn [app]; rewrite <- app_assoc; reflexivity).
    apply lex_badword; [|exact Hm| |exact Hl].
    - destruct Hw as (Hc & H1 & H2 & Hu). repeat split; try assumption. apply Forall_app. split; [exact Hu|constructor; [reflexivity|exact Hv]].
    - apply classify_quote_none; [apply Hw|]. right. apply in_or_app. right. left. reflexivity.
  Qed.

  Definition bad_tail (tail : str) : Prop :=
    (exists rest, tail = 34%N :: rest /\ ~ In 34%N rest) \/
    (exists c w Z, tail = (c :: w) ++ Z /\ wordc c = true /\ c <> 59%N /\ c <> 34%N /\ Forall (fun c => wordc c = true) w /\
                   stops Z /\ classify false (c :: w) = None).

  Lemma bad_tail_head tail : bad_tail tail -> exists c0 r, tail = c0 :: r /\ wordc c0 = true.
  Proof.
    intros [(rest & -> & _)|(c & w & more & -> & Hc & _)]; [exists 34%N, rest; split; reflexivity|].
    exists c, (w ++ more). split; [reflexivity|exact Hc].
  Qed.

  Lemma lex_rejected : forall fuel s, (length s < fuel)%nat -> lex_loop fuel false s = None ->
    exists items tail, trim_left s = render items ++ tail /\ wf_items_t false tail items /\ bad_tail tail.
  Proof.
    induction fuel as [|f IH]; intros s Hlen H; [inversion Hlen|].
    destruct (lex_loop_inv is_letter is_number s) as [_ E|t sep next Es Ht Hsep Hn L E|r Es Hr _|c w more Es Hw Hm Hcl _].
    - rewrite E in H. discriminate.
    - rewrite E in H. destruct (lex_loop f false (sep ++ next)) eqn:El; [discriminate|].
      destruct (IH (sep ++ next) (Nat.lt_le_trans _ _ _ L (le_S_n _ _ Hlen)) El) as (items & tail & Ei & Hwf & Hb). rewrite Hn in Ei. subst next.
      exists ((t, sep) :: items), tail. cbn [render]. rewrite <- !app_assoc. split; [exact Es|split; [exact (conj Ht (conj Hsep Hwf))|exact Hb]].
    - exists [], (34%N :: r). split; [exact Es|split; [exact I|]]. left. exists r. split; [reflexivity|exact Hr].
    - exists [], ((c :: w) ++ more). split; [exact Es|split; [exact I|]]. right. exists c, w, more.
      destruct Hw as (Hc & H1 & H2 & Hw). repeat split; assumption.
  Qed.

  (* neither hypothesis on the quote is used; `Proof using` keeps both in the statement *)
  Theorem lex_none_decomp : forall fuel s, (length s < fuel)%nat -> lex_loop fuel false s = None ->
    exists lead items tail, s = lead ++ render items ++ tail /\ all_space lead /\ wf_items_t false tail items /\ bad_tail tail.
  Proof using letter_q number_q.
    intros fuel s Hlen H. destruct (lex_rejected fuel s Hlen H) as (items & tail & Ei & Hwf & Hb).
    destruct (trim_left_split s) as (lead & Es & Hl). exists lead, items, tail. rewrite <- Ei. repeat split; assumption.
  Qed.

  Lemma wf_noq_t infix tail items : wf_items_t infix tail items -> noq items.
  Proof.
    induction items as [|[t sep] rest IH]; intros H; [constructor|]. destruct H as (Ht & _ & Hr).
    constructor; [exact (Forall_inv (wf_tok_noq is_letter is_number letter_q number_q infix t sep Ht))|apply IH; exact Hr].
  Qed.

  Lemma Jt_start x lead : Jt x (rev lead ++ []) (sp_prev lead SNormal).
  Proof.
    destruct x as [|c x]; [exact I|]. cbn [Jt]. destruct (c =? 34)%N; [|exact I].
    destruct lead; [reflexivity|apply tstart_after; reflexivity].
  Qed.

  (* what the formatter makes of the offending token: it stays where it is, after what is written before a word, and
     what now follows it, the final trim included, does not make it acceptable *)
  Lemma fmt_bad_tail tail b out i p : bad_tail tail -> Jt tail b p ->
    exists c r, wordc c = true /\ fmt tail b out i p = out ++ pre_rune i p ++ c :: r /\
      forall lead fuel, all_space lead -> lex_loop fuel false (lead ++ c :: rtrim r) = None.
  Proof.
    intros [(rest & -> & Hq)|(c & w & more & -> & Hc & H59 & H34 & Hw & Hm & Hcl)] HJ.
    - (* an unclosed literal *)
      exists 34%N, rest. split; [reflexivity|split; [apply fmt_unclosed; [exact Hq|exact HJ]|]].
      intros lead fuel Hl. apply lex_unclosed; [|exact Hl]. intros Hin. exact (Hq (rtrim_in _ _ Hin)).
    - exists c. destruct (in_dec N.eq_dec 34%N w) as [Hin|Hnq].
      + (* the word has a quote in it: the formatter leaves word character and quote side by side *)
        destruct (first_quote w Hin) as (u & v & -> & Hu). apply Forall_app in Hw. destruct Hw as [Hwu _].
        destruct (fmt_word_last c u (34%N :: v ++ more) b out i p) as (d & bb & Hd & Hd34 & E);
          [constructor; assumption|intros [E|E]; [exact (H34 E)|exact (Hu E)]|].
        destruct (fmt_extends (v ++ more) (34%N :: d :: bb) ((out ++ pre_rune i p ++ c :: u) ++ [34%N]) i SNormal) as [Y EY].
        exists (u ++ 34%N :: Y). split; [exact Hc|split].
        * replace ((c :: u ++ 34%N :: v) ++ more) with ((c :: u) ++ 34%N :: v ++ more) by (cbn [app]; rewrite <- app_assoc; reflexivity).
          rewrite E, fmt_quote_mid, EY; [rewrite <- !app_assoc; reflexivity|intros ->; discriminate Hd|exact Hd34].
        * intros lead fuel Hl. rewrite rtrim_keep by reflexivity. apply lex_badword_q; [repeat split; assumption|exact Hl].
      + (* no quote: the word is copied, and nothing that could extend it is written after it *)
        destruct (fmt_word_last c w more b out i p) as (d & bb & Hd & _ & E);
          [constructor; assumption|intros [E|E]; [exact (H34 E)|exact (Hnq E)]|].
        destruct (fmt_after_word more d bb (out ++ pre_rune i p ++ c :: w) i Hm (proj1 (wordc_inv d Hd))) as (Y & EY & HY).
        exists (w ++ Y). split; [exact Hc|split].
        * rewrite E, EY, <- !app_assoc. reflexivity.
        * intros lead fuel Hl. rewrite (rtrim_word_app w Y Hw).
          apply (lex_badword false c w (rtrim Y)); [repeat split; assumption|apply rtrim_stops; exact HY|exact Hcl|exact Hl].
  Qed.

  Lemma finish pre its c1 r : all_space pre -> wf_items_t false (c1 :: rtrim r) its -> wordc c1 = true ->
    (forall lead0 fuel, all_space lead0 -> lex_loop fuel false (lead0 ++ c1 :: rtrim r) = None) ->
    lex false (trim (pre ++ render its ++ c1 :: r)) = None.
  Proof.
    intros Hpre Hwf Hc1 Hbad. apply wordc_inv in Hc1. destruct Hc1 as [Hns _].
    assert (Etl : trim_left (render its ++ c1 :: r) = render its ++ c1 :: r).
    { destruct its as [|[t sep] rest]; [cbn [render app trim_left]; rewrite Hns; reflexivity|].
      cbn [render]. rewrite <- !app_assoc. exact (trim_left_tok _ _ false t _ (proj1 Hwf)). }
    rewrite trim_rtrim, (trim_left_spaces pre _ Hpre), Etl, (rtrim_keep _ c1 r Hns).
    exact (lex_render_none is_letter is_number false (c1 :: rtrim r) Hbad its _ [] Hwf (Forall_nil _)).
  Qed.

  Theorem indent_rejected s : lex false s = None -> lex false (indent_by_parens s) = None.
  Proof.
    intros H. destruct (lex_none_decomp (S (length s)) s (Nat.lt_succ_diag_r _) H) as (lead & items & tail & -> & Hl & Hwf & Hb).
    destruct (bad_tail_head tail Hb) as (c0 & r0 & Etail & Hc0).
    assert (Hne : tail <> []) by (rewrite Etail; discriminate).
    rewrite indent_by_parens_fmt, (fmt_spaces lead Hl). set (b0 := rev lead ++ []). set (p0 := sp_prev lead SNormal).
    destruct (sim_t is_letter is_number false tail Hne items b0 [] 0 p0 Hwf (wf_noq_t false tail items Hwf) (Jt_start _ lead)) as [S1 S2].
    pose proof (regroup items b0 0 p0) as RG. destruct (fstate items b0 0 p0) as [[bE iE] pE]. rewrite S1.
    destruct (fmt_bad_tail tail bE ([] ++ pre_of items b0 0 p0 ++ render (fitems items b0 0 p0)) iE pE Hb S2) as (c & r & Hc & E & Hrej).
    rewrite E. cbn [app]. rewrite <- app_assoc, (app_assoc (render _)), app_assoc, RG, <- app_assoc.
    apply finish; [apply pre_of_t_space| |exact Hc|exact Hrej].
    apply (wf_out_t is_letter is_number false tail); [exists c0, r0; split; assumption|exists c, (rtrim r); split; [reflexivity|exact Hc]|exact Hwf].
  Qed.

  (* the formatter clause of C14 for EVERY text: what the parser is given is unchanged *)
  Theorem indent_meaning_all s :
    option_map drop_comments (lex false (indent_by_parens s)) = option_map drop_comments (lex false s).
  Proof.
    destruct (lex false s) as [toks|] eqn:E.
    - pose proof (indent_meaning_lexable is_letter is_number letter_q number_q s toks E) as M. rewrite E in M. exact M.
    - rewrite (indent_rejected s E). reflexivity.
  Qed.
End RL.

Print Assumptions indent_meaning_all.

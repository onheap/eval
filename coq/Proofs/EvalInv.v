(* EvalInv.v — the decoration invariants carried through the compiler's recursion, the climb lemma
   (the target computed by calAndSetShortCircuit lands where the parent's value would land) and the
   jump lemma (a short-circuiting operand behaves as if its parent had produced the value). *)
Require Import Base Flat Run CompFacts EvalDefs ListFacts.
From Coq Require Import ZifyBool.
Open Scope Z_scope.
Open Scope list_scope.

Section M.
  Variable fetch : str -> Z -> res value.
  Variable custom : str -> list value -> res value.
  Variable P : prog.

  Notation L := (lenZ (nodes P)).
  Notation getn := (getn P).
  Notation run := (run fetch custom P).
  Notation lands := (lands P).
  Notation landsR := (landsR P).
  Notation fin := (fin P).
  Notation lastI := (lastI P).
  Notation need := (need P).
  Notation afterD := (afterD P).
  Notation landR := (landR P).

  Hypothesis SA : forall i nd, getn i = Some nd -> osTop nd < alloc P.

  (* The decoration (mf, mt) of a subtree's root, the code of the subtree ending before `next` and its value going
     to slot h: whenever mf short-circuits b, the target mt lies behind the subtree, a b arriving there lands
     where it would land arriving as the result of node a0 (the ancestor whose value the subtree's value then is),
     and the landing slot is not above h. *)
  Definition RootInv (next h : Z) (mf : flags) (mt a0 : Z) : Prop :=
    forall b, fhas mf b = true ->
      next <= mt < L /\ (forall l, landsR mt b l <-> landsR a0 b l) /\ (exists l, landsR mt b l /\ os_le l h).

  (* anc: the decorations the compiler climbs through (`climb`), innermost ancestor first; aidx: the indices of
     those ancestors' nodes, all behind lo. Each node carries its decoration; where it short-circuits b its target
     is forward and lands where the next ancestor's result would: so a flagged ancestor has a next one. *)
  Fixpoint AncInv (lo : Z) (anc : list (flags * Z)) (aidx : list Z) : Prop :=
    match anc, aidx with
    | [], _ => True
    | (f, t) :: anc', a :: aidx' =>
        lo <= a /\
        (exists nd, getn a = Some nd /\ nflags nd = f /\ scIdx nd = fin t) /\
        (forall b, fhas f b = true -> a < t < L /\
           match aidx' with a1 :: _ => (forall l, landsR t b l <-> landsR a1 b l) | [] => False end) /\
        AncInv lo anc' aidx'
    | _ :: _, [] => False
    end.

  Lemma AncInv_weaken lo lo' anc : forall aidx, lo' <= lo -> AncInv lo anc aidx -> AncInv lo' anc aidx.
  Proof.
    induction anc as [|[f t] anc IH]; intros [|a aidx] Hl H; cbn in *; try tauto.
    destruct H as (H0 & H1 & H2 & H3). split; [lia|]. split; [assumption|]. split; [assumption|]. now apply IH.
  Qed.

  Lemma fsub_has fl pf b : fsub fl pf = true -> fhas fl b = true -> fhas pf b = true.
  Proof. destruct fl as [[] []], pf as [[] []], b; cbn; congruence. Qed.

  Lemma fin_id x : x <> lastI -> fin x = x.
  Proof. unfold EvalDefs.fin. intros H. replace (x =? lastI) with false by lia. reflexivity. Qed.
  Lemma fin_cases x : fin x = -1 \/ fin x = x.
  Proof. unfold EvalDefs.fin. destruct (x =? lastI); auto. Qed.

  Lemma lands_through a nd b t : getn a = Some nd -> matches nd b = true -> scIdx nd = fin t -> a < t ->
    forall l, lands a b l <-> lands (fin t) b l.
  Proof.
    intros G M S Hlt l. split; intros H.
    - inversion H; subst.
      + apply nthZ_range in G. lia.
      + match goal with H1 : getn a = Some ?n |- _ => rewrite G in H1; inversion H1; subst end. congruence.
      + match goal with H1 : getn a = Some ?n |- _ => rewrite G in H1; inversion H1; subst end. rewrite <- S. assumption.
    - eapply lands_step; [exact G|exact M| |rewrite S; exact H].
      rewrite S. destruct (fin_cases t) as [E|E]; rewrite E; [left; reflexivity|right; exact Hlt].
  Qed.

  Lemma climb_iff fl b : fhas fl b = true -> forall anc lo aidx cur a0 rest,
    AncInv lo anc aidx -> aidx = a0 :: rest -> lo <= cur < L ->
    (forall l, landsR cur b l <-> landsR a0 b l) ->
    (forall l, landsR (climb fl anc cur) b l <-> landsR a0 b l) /\ lo <= climb fl anc cur < L.
  Proof.
    intros Hb. induction anc as [|[pf pt] anc IH]; intros lo aidx cur a0 rest HA -> Hcur HC.
    - cbn. auto.
    - cbn [climb]. cbn [AncInv] in HA. destruct HA as (Hlo0 & (nd & G & NF & ST) & Hfl & HA).
      destruct (fsub fl pf) eqn:S; [|auto].
      pose proof (fsub_has _ _ _ S Hb) as Hpb.
      destruct (Hfl b Hpb) as (Hrange & Hnext).
      assert (E : forall l, landsR a0 b l <-> landsR pt b l).
      { intros l. unfold EvalDefs.landsR. rewrite fin_id by (unfold EvalDefs.lastI; lia).
        apply lands_through with (nd := nd); try assumption; [|lia].
        rewrite matches_fhas, NF. exact Hpb. }
      destruct (feq pf fl).
      + split; [intros l; symmetry; apply E|lia].
      + destruct rest as [|a1 rest']; [contradiction|].
        destruct (IH lo (a1 :: rest') pt a1 rest' HA eq_refl ltac:(lia) Hnext) as [H1 H2].
        split; [|exact H2]. intros l. rewrite H1, <- Hnext. symmetry. apply E.
  Qed.

  (* The node pn of an operator, or of any parent of a group of operands, at index ridx: its decoration (mf_p, mt_p)
     with RootInv (a0p: the ancestor whose result pn's value becomes when it short-circuits), its slot h_p, and the
     stack stk0 below it. *)
  Record at_parent (ridx h_p : Z) (pn : node) (mf_p : flags) (mt_p a0p : Z) (stk0 : list value) : Prop := {
    p_get : getn ridx = Some pn;
    p_flags : nflags pn = mf_p;
    p_sc : scIdx pn = fin mt_p;
    p_os : osTop pn = h_p;
    p_h : 0 <= h_p;
    p_stk : lenZ stk0 = h_p;
    p_root : RootInv (ridx + 1) h_p mf_p mt_p a0p;
    p_end : ridx + 1 = L -> h_p = 0   (* only the root of the whole tree ends the program, and its slot is 0 *)
  }.

  Section Node.
    Variables (ridx h_p : Z) (pn : node) (mf_p : flags) (mt_p a0p : Z) (stk0 : list value).
    Hypothesis N : at_parent ridx h_p pn mf_p mt_p a0p stk0.

    (* where value b lands when it arrives as the parent's result, and that landing there is what the parent's
       own continuation does with b: a fact about the machine alone *)
    Lemma parent_lands_eq b : exists l, landsR ridx b l /\ os_le l h_p /\
      forall f x, (need (ridx + 1) <= f)%nat ->
        landR (run f) l (VBool b) (stk0 ++ x) = afterD (run f) (ridx + 1) mf_p (fin mt_p) (VBool b) stk0.
    Proof.
      destruct N as [Gp NFp STp OSp Hh Hs0 RIp EndH]. pose proof (nthZ_range _ _ _ Gp) as R.
      destruct (Z.eq_dec ridx lastI) as [El | Nl].
      - (* the parent is the last node of the program: returning directly *)
        exists LRet. split; [unfold EvalDefs.landsR, EvalDefs.fin; replace (ridx =? lastI) with true by arith; constructor|].
        split; [exact I|]. intros f x Hf.
        assert (EL : ridx + 1 = L) by (unfold EvalDefs.lastI in El; arith).
        assert (Hun : fhas mf_p b = false).
        { destruct (fhas mf_p b) eqn:Hm; [|reflexivity]. destruct (RIp b Hm) as ((? & ?) & _). arith. }
        unfold EvalDefs.afterD. rewrite Hun.
        unfold EvalDefs.store_next, push. specialize (EndH EL). pose proof (SA _ _ Gp) as Ha.
        replace (lenZ stk0 <? alloc P) with true by arith.
        destruct stk0 as [|y ys]; [|unfold lenZ in Hs0; cbn in Hs0; arith].
        destruct f as [|f']; [destruct (need_pos _ _ Hf)|].
        rewrite run_end by arith. reflexivity.
      - destruct (matches pn b) eqn:M.
        + (* the parent short-circuits b as well *)
          assert (Hm : fhas mf_p b = true) by (rewrite <- NFp, <- matches_fhas; exact M).
          destruct (RIp b Hm) as ((Hr1 & Hr2) & Hiff & (lp & Hlp & Hos)).
          exists lp. split; [|split; [exact Hos|]].
          * unfold EvalDefs.landsR. rewrite fin_id by exact Nl.
            apply (lands_through ridx pn b mt_p Gp M STp ltac:(arith)). exact Hlp.
          * intros f x Hf. unfold EvalDefs.afterD. rewrite Hm.
            rewrite (lands_chain_top P (fin mt_p) b lp Hlp ltac:(arith)).
            -- apply landR_prefix with (h := h_p); [exact Hos|arith].
            -- destruct (fin_cases mt_p) as [E|E]; rewrite E; [left; reflexivity|right; arith].
        + exists (LAt ridx pn). split; [|split].
          * unfold EvalDefs.landsR. rewrite fin_id by exact Nl. constructor; assumption.
          * cbn. arith.
          * intros f x Hf. unfold EvalDefs.afterD.
            replace (fhas mf_p b) with false by (rewrite <- NFp, <- matches_fhas; symmetry; exact M).
            unfold EvalDefs.landR, EvalDefs.store_next. rewrite OSp, lenZ_app. pose proof (lenZ_nonneg x).
            replace ((h_p <? 0) || (lenZ stk0 + lenZ x <? h_p)) with false by arith.
            rewrite <- Hs0, firstnZ_app_all. reflexivity.
    Qed.

    (* what the operands of this node see of their ancestors *)
    Lemma anc_child lo anc aidx (inh : bool) nextc :
      AncInv lo anc aidx ->
      (fany mf_p = true -> inh = false -> exists rest, aidx = a0p :: rest) ->
      ridx + 1 <= lo -> nextc <= ridx ->
      AncInv nextc (if inh then [] else (mf_p, mt_p) :: anc) (ridx :: aidx).
    Proof.
      destruct N as [Gp NFp STp OSp Hh Hs0 RIp EndH]. intros HA Haidx Hlo Hn. destruct inh; [exact I|].
      cbn [AncInv]. split; [exact Hn|]. split; [exists pn; auto|]. split.
      - intros b' Hb'. destruct (RIp b' Hb') as ((Hr1 & Hr2) & Hiff & _). split; [arith|].
        destruct (Haidx (fhas_fany _ _ Hb') eq_refl) as [rest ->].
        exact Hiff.
      - eapply AncInv_weaken; [|exact HA]. arith.
    Qed.

    (* an operand with flag fl whose target was computed by climbing from the parent: its target lands where the
       parent's value would, and jumping there is what the parent's continuation does *)
    Lemma child_jump_eq lo anc aidx (inh : bool) fl nextc hc :
      AncInv lo anc aidx ->
      (fany mf_p = true -> inh = false -> exists rest, aidx = a0p :: rest) ->
      ridx + 1 <= lo -> 1 <= nextc <= ridx -> h_p <= hc ->
      let anc' := if inh then [] else (mf_p, mt_p) :: anc in
      let tg := climb fl anc' ridx in
      RootInv nextc hc fl tg ridx /\
      forall b, fhas fl b = true -> forall f x, (need (ridx + 1) <= f)%nat ->
        landR (run f) (chain P (length (nodes P)) (fin tg) b) (VBool b) (stk0 ++ x)
        = afterD (run f) (ridx + 1) mf_p (fin mt_p) (VBool b) stk0.
    Proof.
      destruct N as [Gp NFp STp OSp Hh Hs0 RIp EndH]. intros HA Haidx Hlo Hnext Hhc anc' tg.
      pose proof (nthZ_range _ _ _ Gp) as R.
      assert (CL : forall b, fhas fl b = true ->
                (forall l, landsR tg b l <-> landsR ridx b l) /\ ridx <= tg < L).
      { intros b Hb. unfold tg, anc'. destruct inh.
        - cbn [climb]. split; [tauto|arith].
        - pose proof (anc_child lo anc aidx false ridx HA Haidx Hlo ltac:(arith)) as HA'.
          destruct (climb_iff fl b Hb ((mf_p, mt_p) :: anc) ridx (ridx :: aidx) ridx ridx aidx HA' eq_refl ltac:(arith) ltac:(tauto))
            as [H1 H2]. split; [exact H1|arith]. }
      split.
      - intros b Hb. destruct (CL b Hb) as [Hiff Hrange]. split; [arith|]. split; [exact Hiff|].
        destruct (parent_lands_eq b) as (l & Hl & Hos & _). exists l. split; [apply Hiff; exact Hl|].
        eapply os_le_mono; eauto.
      - intros b Hb f x Hf. destruct (CL b Hb) as [Hiff Hrange].
        destruct (parent_lands_eq b) as (l & Hl & Hos & Hrun).
        rewrite (lands_chain_top P (fin tg) b l); [apply Hrun; exact Hf|apply Hiff; exact Hl|lia|].
        destruct (fin_cases tg) as [E|E]; rewrite E; [left; reflexivity|right; arith].
    Qed.
  End Node.

  Section Parent.
    Variables (ridx h_p : Z) (pn : node) (mf_p : flags) (mt_p a0p : Z).
    Variable KR_p : value -> list obs * mres.
    Variable stk0 : list value.
    (* `parent_lands` and `child_jump` below are stated for an observer `post` of outcomes and what the parent's
       continuation is seen to do (`KR_p`); the inductions use their observer-free forms `*_eq` *)
    Variable post : list obs * mres -> list obs * mres.
    Hypothesis Gp : getn ridx = Some pn.
    Hypothesis NFp : nflags pn = mf_p.
    Hypothesis STp : scIdx pn = fin mt_p.
    Hypothesis OSp : osTop pn = h_p.
    Hypothesis Hh : 0 <= h_p.
    Hypothesis Hs0 : lenZ stk0 = h_p.
    Hypothesis RIp : RootInv (ridx + 1) h_p mf_p mt_p a0p.
    Hypothesis EndH : ridx + 1 = L -> h_p = 0.
    Hypothesis Hroot : forall v f, (need (ridx + 1) <= f)%nat ->
      post (afterD (run f) (ridx + 1) mf_p (fin mt_p) v stk0) = KR_p v.

    Lemma parent_lands b : exists l, landsR ridx b l /\ os_le l h_p /\
      forall f x, (need (ridx + 1) <= f)%nat -> post (landR (run f) l (VBool b) (stk0 ++ x)) = KR_p (VBool b).
    Proof using All.
      pose proof (Build_at_parent _ _ _ _ _ _ _ Gp NFp STp OSp Hh Hs0 RIp EndH) as N.
      destruct (parent_lands_eq _ _ _ _ _ _ _ N b) as (l & Hl & Hos & Hrun). exists l. split; [exact Hl|]. split; [exact Hos|].
      intros f x Hf. rewrite (Hrun f x Hf). apply Hroot. exact Hf.
    Qed.

    Lemma child_jump lo anc aidx (inh : bool) fl nextc hc :
      AncInv lo anc aidx ->
      (fany mf_p = true -> inh = false -> exists rest, aidx = a0p :: rest) ->
      ridx + 1 <= lo -> 1 <= nextc <= ridx -> h_p <= hc ->
      let anc' := if inh then [] else (mf_p, mt_p) :: anc in
      let tg := climb fl anc' ridx in
      RootInv nextc hc fl tg ridx /\
      forall b, fhas fl b = true -> forall f x, (need (ridx + 1) <= f)%nat ->
        post (landR (run f) (chain P (length (nodes P)) (fin tg) b) (VBool b) (stk0 ++ x)) = KR_p (VBool b).
    Proof using All.
      intros HA Haidx Hlo Hnext Hhc anc' tg.
      pose proof (Build_at_parent _ _ _ _ _ _ _ Gp NFp STp OSp Hh Hs0 RIp EndH) as N.
      destruct (child_jump_eq _ _ _ _ _ _ _ N lo anc aidx inh fl nextc hc HA Haidx Hlo Hnext Hhc) as [RI Hj]. split; [exact RI|].
      intros b Hb f x Hf. unfold tg, anc'. rewrite (Hj b Hb f x Hf). apply Hroot. exact Hf.
    Qed.
  End Parent.
End M.

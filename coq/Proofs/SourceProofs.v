(* SourceProofs.v — from text to tree: the whole front end (lex, drop comments, check, parse) applied to ANY layout of
   the tokens of an expression yields the expression's tree — prefix notation (what Dump prints) and infix notation. *)
Require Import Base Tables Ops Tree Lexer Parser LexProofs ListFacts InfixProofs PrefixProofs.
Open Scope Z_scope.
Open Scope list_scope.

Definition plain_tok (t : tok) : bool :=
  match t with KInt _ | KStr _ | KIdent _ => true | _ => false end.

(* prefix notation counts a parenthesis level of 0 before the end as an error: there the tokens must stand inside one *)
Definition level (prefix : bool) (cnt : Z) : Prop := if prefix then 1 <= cnt else 0 <= cnt.

(* parser.check lets `ts` through wherever it stands, in either notation *)
Definition passes (prefix : bool) (ts : list tok) : Prop :=
  forall rest cnt first, level prefix cnt ->
    check_loop prefix (ts ++ rest) cnt false first = check_loop prefix rest cnt false false.

Lemma passes_nil p : passes p [].
Proof. intros [|t rest] cnt first _; [reflexivity|]. destruct t; reflexivity. Qed.

Lemma passes_app p a b : passes p a -> passes p b -> passes p (a ++ b).
Proof. intros Ha Hb rest cnt first Hc. rewrite <- app_assoc, Ha, Hb by exact Hc. reflexivity. Qed.

Lemma passes_plain p ts : Forall (fun t => plain_tok t = true) ts -> passes p ts.
Proof.
  induction 1 as [|t ts Ht _ IH]; [apply passes_nil|]. intros rest cnt first Hc. rewrite <- (IH rest cnt false Hc).
  destruct t; try discriminate; reflexivity.
Qed.

Lemma passes_map p {A} (k : A -> tok) l : (forall x, plain_tok (k x) = true) -> passes p (map k l).
Proof. intros Hk. apply passes_plain, Forall_map, Forall_forall. intros x _. apply Hk. Qed.

Lemma passes_parens p body : passes p body -> passes p (KLParen :: body ++ [KRParen]).
Proof.
  intros Hb rest cnt first Hc. cbn [app check_loop]. rewrite <- app_assoc.
  assert (H1 : (cnt + 1 <? 0) = false /\ (cnt + 1 =? 0) = false /\ level p (cnt + 1)) by (destruct p; cbn [level] in *; lia).
  destruct H1 as (-> & -> & Hc1). rewrite andb_false_r. cbn [andb]. rewrite Hb by exact Hc1. cbn [app check_loop].
  replace (cnt + 1 - 1) with cnt by lia.
  assert (H0 : (cnt <? 0) = false /\ p && (cnt =? 0) = false) by (destruct p; cbn [level andb] in *; lia).
  destruct H0 as (-> & ->). reflexivity.
Qed.

Lemma passes_flat_map p {A} (f : A -> list tok) l : Forall (fun x => passes p (f x)) l -> passes p (flat_map f l).
Proof. induction 1; [apply passes_nil|]. apply passes_app; assumption. Qed.

Lemma lex_tab_render infix items : wf_items is_letter_tab is_number_tab infix items -> lex_tab infix (render items) = Some (map fst items).
Proof. exact (lex_rendering _ _ infix [] items (Forall_nil _)). Qed.

Section PreSrc.
  Variable c : pconf.
  Variable show : Z -> str.
  Hypothesis show_ok : forall z, in_i64 z = true -> parse_int (show z) = Some z.

  Notation ttoks := (ttoks show).
  Notation twf := (twf c).

  Lemma check_node car kids : Forall (fun t => passes true (ttoks t)) kids -> passes true (KIdent car :: flat_map ttoks kids).
  Proof. intros H. apply (passes_app true [KIdent car]), passes_flat_map, H. apply passes_plain. repeat constructor. Qed.

  Lemma check_ttoks : forall t, passes true (ttoks t).
  Proof.
    induction t as [v|n k|name fast cs IH|a b d IHa IHb IHd] using tree_ind2; [| | |rewrite ttoks_if]; cbn [PrefixProofs.ttoks].
    - destruct v as [z|[]|s|li|ls|si|ss'| | |o]; cbn [vtoks]; try apply passes_nil;
        try (apply passes_parens, passes_map; reflexivity); apply passes_plain; repeat constructor.
    - apply passes_plain. repeat constructor.
    - apply (passes_parens true (KIdent name :: _)), check_node, IH.
    - apply (passes_parens true (KIdent _ :: _)), check_node. repeat constructor; assumption.
  Qed.

  Lemma check_top t : is_leaf t = false -> check_tokens false (ttoks t) = true.
  Proof.
    intros Hl.
    assert (Hshape : exists car kids, ttoks t = KLParen :: (KIdent car :: flat_map ttoks kids) ++ [KRParen]).
    { destruct t as [v|n k|name fast cs|a b d]; try discriminate; eexists _, _; [reflexivity|apply ttoks_if]. }
    destruct Hshape as (car & kids & ->). unfold check_tokens. rewrite app_comm_cons, last_last. cbn [negb andb].
    change (check_loop true ((KLParen :: ?b) ++ ?r) 0 false true) with (check_loop true (b ++ r) 1 false false).
    rewrite (check_node car kids) by (try exact (Z.le_refl 1); apply Forall_forall; intros x _; apply check_ttoks). reflexivity.
  Qed.

  Theorem prefix_source_any s toks t :
    lex_tab false s = Some toks -> drop_comments toks = ttoks t -> twf t -> is_leaf t = false ->
    parse_source c false s = Some (strip t).
  Proof.
    intros Hl E Hw Hleaf. unfold parse_source. rewrite Hl, E, (check_top t Hleaf).
    apply parse_prefix_correct; assumption.
  Qed.

  Theorem prefix_source items t :
    wf_items is_letter_tab is_number_tab false items -> drop_comments (map fst items) = ttoks t -> twf t -> is_leaf t = false ->
    parse_source c false (render items) = Some (strip t).
  Proof. intros Hi. apply prefix_source_any, lex_tab_render, Hi. Qed.
End PreSrc.

Section InSrc.
  Variable c : pconf.

  (* the tokens of a leaf pass parser.check wherever they stand *)
  Definition acheck (ts : list tok) : Prop :=
    forall rest cnt fst, 0 <= cnt -> check_loop false (ts ++ rest) cnt false fst = check_loop false rest cnt false false.

  Fixpoint ichk (e : iexp) : Prop :=
    match e with
    | IAtom ts _ => acheck ts
    | IParen e | INot e => ichk e
    | IBin _ l r => ichk l /\ ichk r
    | ICall _ args => (fix all (l : list iexp) : Prop := match l with [] => True | a :: l' => ichk a /\ all l' end) args
    end.

  Lemma check_isep args : Forall (fun a => passes false (itoks a)) args -> passes false (isep args).
  Proof.
    induction 1 as [|a l Ha _ IH]; [apply passes_nil|]. destruct l as [|b l']; [exact Ha|].
    apply passes_app, (passes_app false [KComma]), IH; [exact Ha|]. intros rest cnt first Hc. cbn [app check_loop].
    replace (cnt <? 0) with false by (cbn [level] in Hc; lia). reflexivity.
  Qed.

  Lemma check_itoks : forall e, ichk e -> passes false (itoks e).
  Proof.
    induction e as [ts t|e IH|e IH|op l r IHl IHr|fname args IH] using iexp_ind2; intros Hk.
    - exact Hk.
    - apply passes_parens, IH, Hk.
    - apply (passes_app false [KIdent bang]), IH, Hk. apply passes_plain. repeat constructor.
    - destruct Hk as [Hl Hr]. apply passes_app, (passes_app false [KIdent op]), IHr, Hr; [apply IHl, Hl|apply passes_plain; repeat constructor].
    - rewrite itoks_call. apply (passes_app false [KIdent fname]), passes_parens, check_isep; [apply passes_plain; repeat constructor|].
      apply (all_Forall ichk) in Hk. apply (Forall_mp _ _ _ IH Hk).
  Qed.

  Lemma check_infix e : iwf c e -> ichk e -> check_tokens true (itoks e) = true.
  Proof.
    intros Hw Hk. pose proof (parse_infix_correct c e Hw) as P. pose proof (check_itoks e Hk [] 0 true (Z.le_refl 0)) as H.
    rewrite app_nil_r in H. unfold check_tokens. destruct (itoks e); [discriminate P|exact H].
  Qed.

  (* ANY source text whose tokens (comments dropped) are the expression's - whatever the layout, the glued `!ident`
     spelling of infix notation included: the parsed tree depends on the token sequence only *)
  Theorem infix_source_any s toks e :
    lex_tab true s = Some toks -> drop_comments toks = itoks e -> iwf c e -> ichk e ->
    parse_source c true s = Some (itree c e).
  Proof.
    intros Hl E Hw Hk. unfold parse_source. rewrite Hl, E, (check_infix e Hw Hk). apply parse_infix_correct, Hw.
  Qed.

  Theorem infix_source items e :
    wf_items is_letter_tab is_number_tab true items -> drop_comments (map fst items) = itoks e -> iwf c e -> ichk e ->
    parse_source c true (render items) = Some (itree c e).
  Proof. intros Hi. apply infix_source_any, lex_tab_render, Hi. Qed.

  Lemma atom_one k t : plain_tok k = true -> (forall rest, leaf c true (k :: rest) = LOk t rest) -> iwf c (IAtom [k] t) /\ acheck [k].
  Proof. intros Hk Hl. split; [split; [discriminate|exact Hl]|]. apply (passes_plain false [k]). repeat constructor. exact Hk. Qed.

  Lemma atom_int s z : parse_int s = Some z -> iwf c (IAtom [KInt s] (TConst (VInt z))) /\ acheck [KInt s].
  Proof. intros H. apply atom_one; [reflexivity|]. intros rest. cbn [leaf]. rewrite H. reflexivity. Qed.

  Lemma atom_str s : iwf c (IAtom [KStr s] (TConst (VStr s))) /\ acheck [KStr s].
  Proof. apply atom_one; reflexivity. Qed.

  Lemma atom_var n k : builtin_const n = None -> assoc n (p_consts c) = None -> assoc n (p_vars c) = Some k ->
    iwf c (IAtom [KIdent n] (TVar n k)) /\ acheck [KIdent n].
  Proof. intros H1 H2 H3. apply atom_one; [reflexivity|]. intros rest. cbn [leaf]. rewrite H1, H2, H3. reflexivity. Qed.

  Lemma atom_bool (b : bool) : iwf c (IAtom [KIdent (ss (if b then "true"%string else "false"%string))] (TConst (VBool b))) /\ acheck [KIdent (ss (if b then "true"%string else "false"%string))].
  Proof. apply atom_one; [reflexivity|]. destruct b; reflexivity. Qed.

  Lemma atom_const n v : builtin_const n = None -> assoc n (p_consts c) = Some v ->
    iwf c (IAtom [KIdent n] (TConst v)) /\ acheck [KIdent n].
  Proof. intros H1 H2. apply atom_one; [reflexivity|]. intros rest. cbn [leaf]. rewrite H1, H2. reflexivity. Qed.

  (* inside brackets the check only waits for the closing one *)
  Lemma chk_bracket {A} (k : A -> tok) l : (forall x, plain_tok (k x) = true) -> acheck (KLBracket :: map k l ++ [KRBracket]).
  Proof.
    intros Hk rest cnt first Hc. cbn [app check_loop]. rewrite <- app_assoc.
    replace (cnt <? 0) with false by lia. cbn [andb negb app].
    assert (E : forall first0, check_loop false (map k l ++ KRBracket :: rest) cnt true first0 = check_loop false rest cnt false false); [|apply E].
    induction l as [|x l IH]; intros first0; cbn [map app check_loop].
    - replace (cnt <? 0) with false by lia. reflexivity.
    - specialize (Hk x). destruct (k x); try discriminate; apply IH.
  Qed.

  Lemma atom_int_list (l : list str) zs : l <> [] -> all_parse_int l = Some zs ->
    iwf c (IAtom (KLBracket :: map KInt l ++ [KRBracket]) (TConst (VIntL zs))) /\ acheck (KLBracket :: map KInt l ++ [KRBracket]).
  Proof.
    intros Hn Hp. split; [|apply chk_bracket; reflexivity]. split; [discriminate|]. intros rest.
    cbn [app leaf]. rewrite <- app_assoc. apply parse_int_list; try reflexivity; assumption.
  Qed.

  Lemma atom_str_list (l : list str) :
    iwf c (IAtom (KLBracket :: map KStr l ++ [KRBracket]) (TConst (VStrL l))) /\ acheck (KLBracket :: map KStr l ++ [KRBracket]).
  Proof.
    split; [|apply chk_bracket; reflexivity]. split; [discriminate|]. intros rest.
    cbn [app leaf]. rewrite <- app_assoc. apply parse_str_list; reflexivity.
  Qed.
End InSrc.

Section Same.
  Variable c : pconf.
  Variable show : Z -> str.
  Hypothesis show_ok : forall z, in_i64 z = true -> parse_int (show z) = Some z.

  Fixpoint atoms_leaf (e : iexp) : Prop :=
    match e with
    | IAtom _ t => is_leaf t = true
    | IParen e | INot e => atoms_leaf e
    | IBin _ l r => atoms_leaf l /\ atoms_leaf r
    | ICall _ args => (fix all (l : list iexp) : Prop := match l with [] => True | a :: l' => atoms_leaf a /\ all l' end) args
    end.

  Lemma strip_parent name cs : Forall (fun t => strip t = t) cs -> strip (parent c name cs) = parent c name cs.
  Proof.
    intros H. unfold parent, build_parent. destruct (is_keyword name).
    - destruct (str_eqb name (ss keyword_if)); [|reflexivity].
      destruct cs as [|a [|b [|d [|x cs]]]]; try reflexivity.
      inversion H as [|? ? Ha H1]; subst. inversion H1 as [|? ? Hb H2]; subst. inversion H2 as [|? ? Hd _]; subst.
      cbn [strip]. rewrite Ha, Hb, Hd. reflexivity.
    - destruct (is_operator c name); [|reflexivity]. cbn [strip]. f_equal.
      rewrite (map_ext_Forall _ (fun t => t) H). apply map_id.
  Qed.

  Lemma strip_itree : forall e, atoms_leaf e -> strip (itree c e) = itree c e.
  Proof.
    induction e as [ts t|e IH|e IH|op l r IHl IHr|fname args IH] using iexp_ind2; cbn [atoms_leaf itree]; intros Ha.
    - destruct t; try discriminate; reflexivity.
    - apply IH, Ha.
    - apply strip_parent. repeat constructor. apply IH, Ha.
    - apply strip_parent. destruct Ha. repeat constructor; [apply IHl|apply IHr]; assumption.
    - apply strip_parent. induction IH as [|a l Hx _ IHl]; [constructor|]. destruct Ha as [Ha1 Ha2]. cbn [map]. constructor; [apply Hx, Ha1|apply IHl, Ha2].
  Qed.

  (* an infix expression compiles to the tree of its prefix form *)
  Theorem infix_is_prefix e : iwf c e -> atoms_leaf e -> twf c (itree c e) ->
    parse_infix c (itoks e) = parse_prefix c false (ttoks show (itree c e)).
  Proof.
    intros Hw Ha Ht. rewrite (parse_infix_correct c e Hw), (parse_prefix_correct c show show_ok _ Ht), (strip_itree e Ha). reflexivity.
  Qed.
End Same.

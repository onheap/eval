(* StripValue.v — C13: clearing the fast marks (what Dump + recompile does to a program) never loses a result:
   whenever the original expression returns a value, the expression read back from its Dump returns that value
   (left-to-right, unoptimised). The converse can fail by design: a fast operator fetches both operands first. *)
Require Import Base Tree Opt Pass OptSound OptValue PrefixProofs DumpProofs SemFacts.
Open Scope Z_scope.
Open Scope list_scope.

Section SV.
  Variable fetch : str -> Z -> res value.
  Variable custom : str -> list value -> res value.
  Notation val := (val fetch custom).
  Notation wt := (wt fetch custom).

  (* a fast operator that returns was applied to the values of both leaves, so evaluating them one after the
     other returns the same; typing plays no part *)
  Lemma strip_keeps : forall t, keeps_val fetch custom strip t.
  Proof.
    intros t0. refine (value_pass fetch custom _ _ (fun _ => True) strip_pass _ _ _ _ t0 I);
      [reflexivity|intros; apply Forall_forall; auto|auto|].
    intros n f cs v _ HK H. destruct (fast_shape f cs) eqn:Hfs; [|exact (keeps_op fetch custom n f false _ _ v HK Hfs eq_refl H)].
    destruct (fast_shape_inv _ _ Hfs) as (a & b & -> & _ & _ & ->). rewrite (val_fast fetch custom n a b Hfs) in H.
    destruct (val a) as [va|e] eqn:Ea; [|discriminate]. destruct (val b) as [vb|e] eqn:Eb; [|discriminate].
    rewrite val_op by reflexivity. apply (vargs_strict fetch custom n [va; vb]); [|exact H].
    inversion HK as [|? ? ? ? [_ Ka] HK']. inversion HK' as [|? ? ? ? [_ Kb] _]. subst. repeat constructor; auto.
  Qed.

  Theorem strip_value : forall t, wt t -> forall v, val t = Ok v -> val (strip t) = Ok v.
  Proof. intros t _. apply strip_keeps. Qed.

  Lemma strip_nofast : forall t, nofast (strip t).
  Proof.
    apply (pass_rel _ _ strip_pass (fun _ t' => nofast t')); [intros [] H; try discriminate H; exact I| |cbn [nofast]; auto].
    intros n f cs cs' H. apply nofast_op. split; [reflexivity|]. induction H; constructor; assumption.
  Qed.

  Lemma vars_ok_strip : forall t, vars_ok fetch t -> vars_ok fetch (strip t).
  Proof. apply (vars_ok_pass fetch _ _ strip_pass). intros n f cs. apply vars_ok_op. Qed.

  (* C13: nor is a result lost when the Dump is recompiled under a configuration that does not reorder (variables bound) *)
  Theorem strip_value_cfg cfg t v : pass_on cfg "reordering" = false -> wt t -> vars_ok fetch t ->
    val t = Ok v -> val (optimize custom cfg (strip t)) = Ok v.
  Proof.
    intros Hr Hw Hv H. apply (no_reorder_value fetch custom cfg (strip t) v Hr (strip_nofast t) (proj2 (sound_strip fetch custom t) Hw) (vars_ok_strip t Hv)).
    apply strip_keeps. exact H.
  Qed.
End SV.

Print Assumptions strip_value.

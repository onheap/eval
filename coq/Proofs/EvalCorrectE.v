(* EvalCorrectE.v — C12: `dl`, what an observer of the event-mode program sees apart from LOOP events, and how it
   commutes with the ways outcomes are built. *)
Require Import Base Run EvalDefs.
Open Scope Z_scope.
Open Scope list_scope.

Definition dl (x : list obs * mres) : list obs * mres := (drop_loops (fst x), snd x).

Lemma drop_loops_app a b : drop_loops (a ++ b) = drop_loops a ++ drop_loops b.
Proof. unfold drop_loops. apply filter_app. Qed.

Lemma dl_preM tr x : dl (preM tr x) = preM (drop_loops tr) (dl x).
Proof. destruct x. unfold dl, preM. cbn [fst snd]. rewrite drop_loops_app. reflexivity. Qed.

Lemma drop_loops_e2o tr : drop_loops (map e2o tr) = map e2o tr.
Proof. induction tr as [|e tr IH]; [reflexivity|]. cbn [map]. destruct e; cbn; rewrite <- IH at 2; reflexivity. Qed.

Lemma dl_pre tr x : dl (preM (map e2o tr) x) = preM (map e2o tr) (dl x).
Proof. rewrite dl_preM, drop_loops_e2o. reflexivity. Qed.

Lemma dl_bindT x K : dl (bindT x K) = bindT x (fun v => dl (K v)).
Proof. destruct x as [tr [v|e]]; cbn [bindT]; [apply dl_pre|]. unfold dl. cbn [fst snd]. rewrite drop_loops_e2o. reflexivity. Qed.

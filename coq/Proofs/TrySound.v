(* TrySound.v — C04: a definite TryEval answer is never contradicted.
   try_sound: by Eval under any completion of the unavailable variables;
   try_mono:  by TryEval with more variables available. *)
Require Import Base Tree ListFacts SemFacts TryFacts.
Open Scope Z_scope.
Open Scope list_scope.

Definition rel (a b : value) : Prop := a = VDNE \/ a = b.

Lemma rel_refl a : rel a a. Proof. right. reflexivity. Qed.

Lemma rel_no_dne l1 l2 : Forall2 rel l1 l2 -> existsb is_dne l1 = false -> l1 = l2.
Proof.
  induction 1 as [|a b l1 l2 Hab _ IH]; intros H; [reflexivity|]. cbn [existsb] in H. apply orb_false_iff in H. destruct H as [Ha Hl].
  f_equal; [|apply IH; exact Hl]. destruct Hab as [-> | ->]; [discriminate|reflexivity].
Qed.

Lemma rel_decider l1 l2 d : Forall2 rel l1 l2 ->
  existsb (tmatches (Some d)) l1 = true -> existsb (tmatches (Some d)) l2 = true.
Proof.
  induction 1 as [|a b l1 l2 Hab _ IH]; intros H; [discriminate|]. cbn [existsb] in *. apply orb_true_iff in H. destruct H as [Ha|Hl].
  - rewrite (tmatches_some _ _ Ha) in Hab. destruct Hab as [Hx | <-]; [discriminate|]. rewrite tmatches_bool. reflexivity.
  - rewrite (IH Hl). apply orb_true_r.
Qed.

(* a fast operator: both operands are evaluated, then combined, by F with less information and by G with more *)
Lemma both_rel (F G : list value -> res value) (ra rb ra' rb' : res value) v v' :
  (forall x y, ra = Ok x -> ra' = Ok y -> rel x y) -> (forall x y, rb = Ok x -> rb' = Ok y -> rel x y) ->
  (forall l l', Forall2 rel l l' -> F l = Ok v -> G l' = Ok v' -> rel v v') ->
  bind ra (fun x => bind rb (fun y => F [x; y])) = Ok v -> bind ra' (fun x => bind rb' (fun y => G [x; y])) = Ok v' -> rel v v'.
Proof.
  intros Ha Hb HF H1 H2. destruct ra as [xa|], rb as [xb|], ra' as [ya|], rb' as [yb|]; try discriminate.
  apply (HF [xa; xb] [ya; yb]); [|exact H1|exact H2]. constructor; [apply Ha|constructor; [apply Hb|constructor]]; reflexivity.
Qed.

Section S.
  Variable custom : str -> list value -> res value.
  Notation apply_op := (apply_op custom).
  Notation comb := (comb custom).

  Lemma comb_apply_rel name l1 l2 v v' : Forall2 rel l1 l2 ->
    comb name l1 = Ok v -> apply_op name l2 = Ok v' -> rel v v'.
  Proof.
    intros HR Hc Ha. destruct (existsb is_dne l1) eqn:E2.
    - destruct (op_kind name) as [d|] eqn:Hk; [|rewrite (comb_none _ _ _ Hk), E2 in Hc; inversion Hc; left; reflexivity].
      rewrite (comb_some _ _ _ _ Hk), E2 in Hc. destruct (existsb (tmatches (Some d)) l1) eqn:E1; inversion Hc; [right|left; reflexivity].
      rewrite (boolop_result custom _ _ _ _ Hk Ha), (rel_decider _ _ _ HR E1). reflexivity.
    - destruct (rel_no_dne _ _ HR E2). rewrite (comb_apply _ _ _ _ E2 Ha) in Hc. right. congruence.
  Qed.

  Lemma comb_rel name l1 l2 v v' : Forall2 rel l1 l2 -> comb name l1 = Ok v -> comb name l2 = Ok v' -> rel v v'.
  Proof.
    intros HR H1 H2. destruct (existsb is_dne l1) eqn:E2; [|rewrite (rel_no_dne _ _ HR E2) in H1; right; congruence].
    destruct (op_kind name) as [d|] eqn:Hk; [|rewrite (comb_none _ _ _ Hk), E2 in H1; inversion H1; left; reflexivity].
    rewrite (comb_some _ _ _ _ Hk), E2 in H1. rewrite (comb_some _ _ _ _ Hk) in H2.
    destruct (existsb (tmatches (Some d)) l1) eqn:E1; inversion H1; [right|left; reflexivity].
    rewrite (rel_decider _ _ _ HR E1) in H2. congruence.
  Qed.

  Lemma comb_undecided name d vs v : op_kind name = Some d -> Forall (fun a => tmatches (Some d) a = false) vs ->
    comb name vs = Ok v -> v = VDNE \/ v = VBool (negb d).
  Proof.
    intros Hk Hn H. rewrite (comb_some _ _ _ _ Hk), (existsb_none _ _ Hn) in H.
    destruct (existsb is_dne vs); [inversion H; auto|]. right.
    rewrite (boolop_result custom _ _ _ _ Hk H), (existsb_none _ _ Hn). reflexivity.
  Qed.

  Variable fetch : str -> Z -> res value.
  Variable cached : str -> Z -> bool.
  Notation trysem := (trysem fetch custom cached).
  Notation trysem_args := (trysem_args fetch custom cached).

  (* once an unknown operand has been passed, an and/or can only come out unknown or as its deciding value *)
  Lemma diverged name d : op_kind name = Some d -> forall cs acc v,
    existsb is_dne acc = true -> snd (trysem_args name cs acc) = Ok v -> v = VDNE \/ v = VBool d.
  Proof.
    intros Hk. induction cs as [|c cs IH]; intros acc v Hd H.
    - rewrite try_args_nil in H. rewrite <- existsb_rev in Hd.
      destruct (comb_dne custom name _ Hd) as [E|(d' & Hk' & E)]; rewrite E in H; inversion H; [auto|right; congruence].
    - rewrite try_args_cons, Hk in H. destruct (snd (trysem c)) as [vc|]; [|discriminate]. cbn [bind] in H.
      destruct (tmatches (Some d) vc) eqn:Hm.
      + inversion H; subst. right. apply tmatches_some. exact Hm.
      + apply (IH (vc :: acc) v); [cbn [existsb]; rewrite Hd; apply orb_true_r|exact H].
  Qed.

  Lemma operand_result_inv k lastc v : operand_result k lastc v = true ->
    exists d, k = Some d /\ (v = VBool d \/ lastc = true /\ v = VBool (negb d)).
  Proof.
    destruct k as [d|], v as [|b| | | | | | | |]; try discriminate. cbn [operand_result]. intros H. exists d. split; [reflexivity|].
    destruct b, d; auto.
  Qed.

  Section Sound.
    Variable fetch' : str -> Z -> res value.
    Hypothesis agree : forall n k, cached n k = true -> fetch' n k = fetch n k.
    Notation sem' := (sem fetch' custom).
    Notation sem_args' := (sem_args fetch' custom).

    Definition sound_at (t : tree) : Prop :=
      forall v v', snd (trysem t) = Ok v -> snd (sem' t) = Ok v' -> rel v v'.

    Lemma leaf_sound t : is_leaf t = true -> forall v v',
      snd (tleaf_val fetch cached t) = Ok v -> snd (leaf_val fetch' t) = Ok v' -> rel v v'.
    Proof.
      destruct t as [c|n k| |]; try discriminate; intros _ v v' H1 H2; cbn in *.
      - right. congruence.
      - destruct (cached n k) eqn:Ec; cbn in H1; [rewrite (agree _ _ Ec) in H2; right; congruence|inversion H1; left; reflexivity].
    Qed.

    Lemma args_sound name : forall cs, Forall sound_at cs -> forall acc_t acc_e v v',
      Forall2 rel acc_t acc_e ->
      Forall (fun a => tmatches (op_kind name) a = false) acc_t ->
      snd (trysem_args name cs acc_t) = Ok v -> snd (sem_args' name cs acc_e) = Ok v' -> rel v v'.
    Proof.
      induction 1 as [|c cs' Hc _ IH]; intros acc_t acc_e v v' HR Hns Ht He.
      - rewrite try_args_nil in Ht. exact (comb_apply_rel _ _ _ _ _ (Forall2_rev _ _ _ HR) Ht He).
      - rewrite try_args_cons in Ht. cbn [Tree.sem_args] in He.
        destruct (snd (trysem c)) as [vt|] eqn:Et; [|discriminate].
        destruct (sem' c) as [tre [ve|ee]] eqn:Ee; [|discriminate].
        assert (Hrel : rel vt ve) by (apply Hc; [exact Et|rewrite Ee; reflexivity]).
        cbv zeta in He. cbn [bind] in Ht.
        set (lastc := match cs' with [] => can_be_last c && (2 <=? lenZ (c :: cs') + lenZ acc_e) | _ :: _ => false end) in *.
        destruct (tmatches (op_kind name) vt) eqn:Hm.
        + (* TryEval stops here *)
          inversion Ht; subst v. destruct (op_kind name) as [d|] eqn:Hk; [|left; exact (tmatches_none _ Hm)].
          apply tmatches_some in Hm. subst vt. destruct Hrel as [Hx|<-]; [discriminate|].
          cbn [operand_result] in He. rewrite Bool.eqb_reflx in He. cbn [orb snd] in He. right. congruence.
        + destruct (operand_result (op_kind name) lastc ve) eqn:Hor; [|apply (IH (vt :: acc_t) (ve :: acc_e) v v'); auto].
          inversion He; subst v'. destruct (operand_result_inv _ _ _ Hor) as (d & Hk & [-> | [Hlast ->]]); rewrite Hk in *.
          * (* Eval is decided by an operand unknown to TryEval, which went on *)
            destruct Hrel as [-> | ->]; [|rewrite tmatches_bool in Hm; discriminate].
            exact (diverged name d Hk cs' (VDNE :: acc_t) v eq_refl Ht).
          * (* Eval returns its last operand: TryEval applies the operator to operands none of which decides *)
            unfold lastc in Hlast. destruct cs' as [|c2 cs'']; [|discriminate]. rewrite try_args_nil in Ht.
            apply (comb_undecided name d (rev (vt :: acc_t)) v Hk); [apply Forall_rev; constructor; assumption|exact Ht].
    Qed.

    Lemma sem_fast_val name a b : snd (sem_fast fetch' custom name a b) =
      bind (snd (leaf_val fetch' a)) (fun va => bind (snd (leaf_val fetch' b)) (fun vb => apply_op name [va; vb])).
    Proof.
      unfold sem_fast. destruct (leaf_val fetch' a) as [t1 [va|e]]; [|reflexivity].
      destruct (leaf_val fetch' b) as [t2 [vb|e]]; reflexivity.
    Qed.

    Theorem try_sound : forall t, sound_at t.
    Proof.
      induction t as [c|n k|name fast cs IH|c t f IHc IHt IHf] using tree_ind2; intros v v' H1 H2.
      - exact (leaf_sound (TConst c) eq_refl v v' H1 H2).
      - exact (leaf_sound (TVar n k) eq_refl v v' H1 H2).
      - destruct (fast_shape fast cs) eqn:Hfs.
        + destruct (fast_shape_inv _ _ Hfs) as (a & b & -> & Ha & Hb & ->).
          rewrite (try_fast _ _ _ _ _ _ Hfs) in H1. rewrite (sem_fast_eq _ _ _ _ _ Hfs), sem_fast_val in H2.
          exact (both_rel _ _ _ _ _ _ v v' (leaf_sound a Ha) (leaf_sound b Hb) (fun l l' => comb_apply_rel name l l' v v') H1 H2).
        + rewrite (trysem_op _ _ _ _ _ _ Hfs) in H1. rewrite (sem_op _ _ _ _ _ Hfs) in H2.
          eapply args_sound; [exact IH|constructor|constructor|exact H1|exact H2].
      - rewrite try_if in H1. cbn [Tree.sem] in H2.
        destruct (snd (trysem c)) as [vc|] eqn:Ec; [|discriminate].
        destruct (sem' c) as [tre [wc|e]] eqn:Fc; [|discriminate].
        assert (Hr : rel vc wc) by (apply IHc; [exact Ec|rewrite Fc; reflexivity]).
        destruct Hr as [-> | ->]; [inversion H1; left; reflexivity|].
        destruct wc as [z|[]|s|li|ls|si|ss'| | |o]; try discriminate; [apply IHt|apply IHf]; assumption.
    Qed.
  End Sound.
End S.

Section Mono.
  Variable custom : str -> list value -> res value.
  Variable fetch : str -> Z -> res value.
  Variables cached1 cached2 : str -> Z -> bool.
  Hypothesis more : forall n k, cached1 n k = true -> cached2 n k = true.

  Notation try1 := (trysem fetch custom cached1).
  Notation try2 := (trysem fetch custom cached2).
  Notation args1 := (trysem_args fetch custom cached1).
  Notation args2 := (trysem_args fetch custom cached2).
  Notation comb := (comb custom).

  Definition mono_at (t : tree) : Prop :=
    forall v v', snd (try1 t) = Ok v -> snd (try2 t) = Ok v' -> rel v v'.

  Lemma leaf_mono t : is_leaf t = true -> forall v v',
    snd (tleaf_val fetch cached1 t) = Ok v -> snd (tleaf_val fetch cached2 t) = Ok v' -> rel v v'.
  Proof.
    destruct t as [c|n k| |]; try discriminate; intros _ v v' H1 H2; cbn in *.
    - right. congruence.
    - destruct (cached1 n k) eqn:Ec; cbn in H1; [|inversion H1; left; reflexivity].
      rewrite (more _ _ Ec) in H2. cbn in H2. right. congruence.
  Qed.

  Lemma args_mono name : forall cs, Forall mono_at cs -> forall acc1 acc2 v v',
    Forall2 rel acc1 acc2 ->
    snd (args1 name cs acc1) = Ok v -> snd (args2 name cs acc2) = Ok v' -> rel v v'.
  Proof.
    induction 1 as [|c cs' Hc _ IH]; intros acc1 acc2 v v' HR H1 H2.
    - rewrite try_args_nil in H1, H2. exact (comb_rel _ _ _ _ _ _ (Forall2_rev _ _ _ HR) H1 H2).
    - rewrite try_args_cons in H1, H2.
      destruct (snd (try1 c)) as [v1|] eqn:E1; [|discriminate]. destruct (snd (try2 c)) as [v2|] eqn:E2; [|discriminate].
      pose proof (Hc _ _ E1 E2) as Hrel. cbn [bind] in H1, H2.
      destruct (tmatches (op_kind name) v1) eqn:Hm1.
      + inversion H1; subst v. destruct Hrel as [-> | <-]; [left; reflexivity|]. rewrite Hm1 in H2. right. congruence.
      + destruct (tmatches (op_kind name) v2) eqn:Hm2; [|apply (IH (v1 :: acc1) (v2 :: acc2) v v'); auto].
        (* only the better informed evaluation stops: the operand was unknown to the other *)
        inversion H2; subst v'. destruct Hrel as [-> | ->]; [|congruence].
        destruct (op_kind name) as [d|] eqn:Hk; [|discriminate]. rewrite (tmatches_some _ _ Hm2).
        exact (diverged custom fetch cached1 name d Hk cs' (VDNE :: acc1) v eq_refl H1).
  Qed.

  Theorem try_mono : forall t, mono_at t.
  Proof.
    induction t as [c|n k|name fast cs IH|c t f IHc IHt IHf] using tree_ind2; intros v v' H1 H2.
    - exact (leaf_mono (TConst c) eq_refl v v' H1 H2).
    - exact (leaf_mono (TVar n k) eq_refl v v' H1 H2).
    - destruct (fast_shape fast cs) eqn:Hfs.
      + destruct (fast_shape_inv _ _ Hfs) as (a & b & -> & Ha & Hb & ->).
        rewrite (try_fast _ _ _ _ _ _ Hfs) in H1. rewrite (try_fast _ _ _ _ _ _ Hfs) in H2.
        exact (both_rel _ _ _ _ _ _ v v' (leaf_mono a Ha) (leaf_mono b Hb) (fun l l' => comb_rel custom name l l' v v') H1 H2).
      + rewrite (trysem_op custom fetch cached1 _ _ _ Hfs) in H1. rewrite (trysem_op custom fetch cached2 _ _ _ Hfs) in H2.
        eapply args_mono; [exact IH|constructor|exact H1|exact H2].
    - rewrite try_if in H1, H2.
      destruct (snd (try1 c)) as [vc|] eqn:Ec; [|discriminate]. destruct (snd (try2 c)) as [wc|] eqn:Fc; [|discriminate].
      destruct (IHc _ _ Ec Fc) as [-> | ->]; [inversion H1; left; reflexivity|]. cbn [bind] in H1, H2.
      destruct wc as [z|[]|s|li|ls|si|ss'| | |o]; try discriminate; [apply IHt|apply IHf|right; congruence]; assumption.
  Qed.
End Mono.

Section AllAvailable.
  Variable custom : str -> list value -> res value.
  Variable fetch : str -> Z -> res value.
  Definition all_cached (n : str) (k : Z) : bool := true.

  (* with everything available TryEval never sees DNE from a variable; a value it returns (other than a DNE
     produced by the expression itself) is the value Eval returns whenever Eval succeeds *)
  Theorem try_eval_agree_on_values t v v' :
    snd (trysem fetch custom all_cached t) = Ok v -> snd (sem fetch custom t) = Ok v' -> v = VDNE \/ v = v'.
  Proof. apply (try_sound custom fetch all_cached fetch); reflexivity. Qed.
End AllAvailable.

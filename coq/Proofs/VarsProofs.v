(* VarsProofs.v — C11: registration never reassigns or duplicates keys; both fetchers return the bound value. *)
Require Import Base Tables Vars OpsList OpsArith.
From Coq Require Import FinFun.
Open Scope Z_scope.
Open Scope list_scope.

Lemma km_find_app name km1 km2 : km_find name (km1 ++ km2) =
  match km_find name km1 with Some k => Some k | None => km_find name km2 end.
Proof. induction km1 as [|[n k] km1 IH]; cbn [app km_find]; [reflexivity|]. destruct (str_eqb name n); [reflexivity|exact IH]. Qed.

Lemma km_find_none_notin name km : km_find name km = None -> ~ In name (map fst km).
Proof.
  induction km as [|[n k] km IH]; cbn [km_find map fst]; [intros _ []|].
  destruct (str_eqb name n) eqn:E; [discriminate|]. intros H [->|Hin]; [|exact (IH H Hin)].
  rewrite str_eqb_refl in E. discriminate.
Qed.

Lemma km_find_in name km k : km_find name km = Some k -> In (name, k) km.
Proof.
  induction km as [|[n k'] km IH]; cbn [km_find]; [discriminate|]. destruct (str_eqb name n) eqn:E.
  - intros [= ->]. apply list_eqb_N_eq in E. subst. left. reflexivity.
  - intros H. right. exact (IH H).
Qed.

Definition new_key (km : keymap) : Z :=
  match first_free (km_keys km) 1 (length km) with Some i => i | None => lenZ km + 1 end.

Lemma register_eq km name : get_or_register km name =
  match km_find name km with Some k => (km, k) | None => (km ++ [(name, new_key km)], new_key km) end.
Proof. reflexivity. Qed.

Lemma first_free_spec keys : forall fuel from i, first_free keys from fuel = Some i ->
  from <= i < from + Z.of_nat fuel /\ ~ In i keys.
Proof.
  induction fuel as [|f IH]; intros from i H; cbn [first_free] in H; [discriminate|].
  destruct (mem_Z from keys) eqn:E.
  - destruct (IH _ _ H). split; [lia|assumption].
  - injection H as <-. split; [lia|]. intros Hin. apply mem_Z_In in Hin. congruence.
Qed.

Lemma first_free_none keys : forall fuel from, first_free keys from fuel = None ->
  forall i, from <= i < from + Z.of_nat fuel -> In i keys.
Proof.
  induction fuel as [|f IH]; intros from H i Hi; [lia|]. cbn [first_free] in H.
  destruct (mem_Z from keys) eqn:E; [|discriminate].
  destruct (Z.eq_dec i from) as [->|Hne]; [apply mem_Z_In; exact E|]. apply (IH _ H). lia.
Qed.

Lemma seqZ_nodup n from : NoDup (map (fun i => from + Z.of_nat i) (seq 0 n)).
Proof. apply Injective_map_NoDup; [|apply seq_NoDup]. intros a b H. lia. Qed.

(* the first free key of 1..size, or size+1 by a counting argument *)
Lemma new_key_fresh km : ~ In (new_key km) (km_keys km).
Proof.
  unfold new_key. destruct (first_free (km_keys km) 1 (length km)) as [i|] eqn:E.
  - apply (first_free_spec _ _ _ _ E).
  - (* every i in 1..size is a key, and there are only size keys: so every key is in 1..size *)
    pose proof (first_free_none _ _ _ E) as Hall.
    assert (Hback : incl (km_keys km) (map (fun i => 1 + Z.of_nat i) (seq 0 (length km)))).
    { apply NoDup_length_incl; [apply seqZ_nodup|unfold km_keys; rewrite !map_length, seq_length; apply le_n|].
      intros x Hx. apply in_map_iff in Hx. destruct Hx as [j [<- Hj]]. apply in_seq in Hj. apply Hall. lia. }
    intros Hin. apply Hback, in_map_iff in Hin. destruct Hin as [j [Hj Hjs]].
    apply in_seq in Hjs. unfold lenZ in Hj. lia.
Qed.

Lemma new_key_range km : 1 <= new_key km <= lenZ km + 1.
Proof.
  unfold new_key, lenZ. destruct (first_free (km_keys km) 1 (length km)) as [i|] eqn:E; [|lia].
  apply first_free_spec in E. lia.
Qed.

Theorem register_preserves km name : forall n k, km_find n km = Some k -> km_find n (fst (get_or_register km name)) = Some k.
Proof.
  intros n k H. rewrite register_eq. destruct (km_find name km); [exact H|]. cbn [fst]. rewrite km_find_app, H. reflexivity.
Qed.

Theorem register_fresh km name : injective km -> km_find name km = None ->
  ~ In (snd (get_or_register km name)) (km_keys km).
Proof. intros _ Hn. rewrite register_eq, Hn. apply new_key_fresh. Qed.

(* the new key is between 1 and size+1: inside the int16 range while the map has fewer than 32767 entries *)
Theorem register_key_range km name : km_find name km = None ->
  1 <= snd (get_or_register km name) <= lenZ km + 1.
Proof. intros Hn. rewrite register_eq, Hn. apply new_key_range. Qed.

Lemma NoDup_snoc {A} (l : list A) x : NoDup l -> ~ In x l -> NoDup (l ++ [x]).
Proof. intros Hn Hx. apply (NoDup_Add (Add_app x l [])). rewrite app_nil_r. split; assumption. Qed.

Theorem register_injective km name : injective km -> injective (fst (get_or_register km name)).
Proof.
  intros Hinj. rewrite register_eq. destruct (km_find name km); [exact Hinj|]. cbn [fst].
  unfold injective, km_keys. rewrite map_app. apply NoDup_snoc; [exact Hinj|apply new_key_fresh].
Qed.

Theorem register_names_distinct km name : names_distinct km -> names_distinct (fst (get_or_register km name)).
Proof.
  intros Hd. rewrite register_eq. destruct (km_find name km) eqn:E; [exact Hd|]. cbn [fst].
  unfold names_distinct. rewrite map_app. apply NoDup_snoc; [exact Hd|apply km_find_none_notin, E].
Qed.

Lemma register_all_inv (P : keymap -> Prop) : (forall km n, P km -> P (fst (get_or_register km n))) ->
  forall names km, P km -> P (fst (register_all km names)).
Proof.
  intros Hstep names km H. unfold register_all. change (P (fst (km, @nil Z))) in H. revert H. generalize (km, @nil Z).
  induction names as [|n names IH]; intros st H; cbn [fold_left]; [exact H|]. apply IH, Hstep, H.
Qed.

Theorem history_injective names km : injective km -> names_distinct km ->
  injective (fst (register_all km names)) /\ names_distinct (fst (register_all km names)) /\
  (forall n k, km_find n km = Some k -> km_find n (fst (register_all km names)) = Some k).
Proof.
  intros Hi Hd. split; [|split].
  - apply (register_all_inv injective); [apply register_injective|exact Hi].
  - apply (register_all_inv names_distinct); [apply register_names_distinct|exact Hd].
  - intros n k. apply (register_all_inv (fun km' => km_find n km' = Some k)). intros km' nm. apply register_preserves.
Qed.

Lemma keys_inj km n1 n2 k : injective km -> In (n1, k) km -> In (n2, k) km -> n1 = n2.
Proof.
  unfold injective, km_keys. induction km as [|[n k'] km IH]; intros Hi H1 H2; [destruct H1|].
  cbn [map snd] in Hi. inversion Hi as [|? ? Hk Hi']; subst. destruct H1 as [E1|H1], H2 as [E2|H2].
  - congruence.
  - injection E1 as -> ->. destruct Hk. exact (in_map snd _ _ H2).
  - injection E2 as -> ->. destruct Hk. exact (in_map snd _ _ H1).
  - exact (IH Hi' H1 H2).
Qed.

Lemma arr_get_unique key v arr : In (key, v) arr -> (forall v', In (key, v') arr -> v' = v) -> arr_get key arr = v.
Proof.
  induction arr as [|[k' v'] arr IH]; intros Hin Hu; [destruct Hin|]. cbn [arr_get].
  destruct (Z.eqb_spec key k') as [->|Hne].
  - apply Hu. left. reflexivity.
  - apply IH; [destruct Hin as [E|Hin]; [congruence|exact Hin]|intros v0 H0; apply Hu; right; exact H0].
Qed.

(* the slice holds one entry for every key whose name is bound (in reverse order of the key map) *)
Definition entries (b : bindings) (nk : str * Z) : list (Z * value) :=
  match b_find (fst nk) b with Some g => [(snd nk, unify g)] | None => [] end.

Lemma slice_of_flat km b : slice_of km b = rev (flat_map (entries b) km).
Proof.
  unfold slice_of. rewrite <- (app_nil_r (rev _)). generalize (@nil (Z * value)).
  induction km as [|nk km IH]; intros acc; cbn [fold_left flat_map]; [reflexivity|].
  rewrite IH, rev_app_distr, <- app_assoc. f_equal. unfold entries. destruct (b_find (fst nk) b); reflexivity.
Qed.

Lemma slice_in km b k v : In (k, v) (slice_of km b) <-> exists n g, In (n, k) km /\ b_find n b = Some g /\ v = unify g.
Proof.
  rewrite slice_of_flat, <- in_rev, in_flat_map. unfold entries. split.
  - intros [[n k'] [Hin H]]. cbn [fst snd] in H. destruct (b_find n b) as [g|] eqn:E; [|destruct H].
    destruct H as [[= <- <-]|[]]. exists n, g. auto.
  - intros (n & g & Hin & E & ->). exists (n, k). split; [exact Hin|]. cbn [fst snd]. rewrite E. left. reflexivity.
Qed.

Lemma fold_max_ge l : forall d x, x <= d \/ In x l -> x <= fold_left Z.max l d.
Proof.
  induction l as [|y l IH]; intros d x H; cbn [fold_left]; [destruct H as [H|[]]; exact H|].
  apply IH. destruct H as [H|[->|H]]; [left; lia|left; lia|right; exact H].
Qed.

(* a variable evaluates to the normalised value bound to its name, whichever fetcher NewCtxFromVars picks:
   undefined-variable mode (map fetcher by name), keys from 0 to below `slice_fetcher_limit`, 256 as generated (slice
   fetcher), anything else (map fetcher) *)
Theorem fetch_correct undefined km b name key g :
  injective km -> names_distinct km ->
  km_find name km = Some key -> b_find name b = Some g ->
  fget (new_ctx undefined km b) key name = Ok (unify g).
Proof.
  intros Hi _ Hk Hb. unfold new_ctx. destruct undefined; [cbn [fget]; rewrite Hb; reflexivity|].
  destruct ((key_min km <=? key_max km) && (0 <=? key_min km) && (key_max km <? slice_fetcher_limit));
    [|cbn [fget]; rewrite Hb; reflexivity].
  cbn [fget]. pose proof (km_find_in _ _ _ Hk) as Hin.
  assert (key <= key_max km) by (apply fold_max_ge; right; exact (in_map snd _ _ Hin)).
  destruct (Z.leb_spec (key_max km + 1) key); [lia|].
  (* key is the key of no other name, so the slice has one value for it *)
  f_equal. apply arr_get_unique.
  - apply slice_in. exists name, g. auto.
  - intros v Hv. apply slice_in in Hv. destruct Hv as (n & g' & Hn & Hg' & ->).
    rewrite (keys_inj km n name key Hi Hn Hin) in Hg'. congruence.
Qed.

(* unifyType: a uint64 from 2^63 up becomes the negative int64 with the same bits, a Duration is cut to whole seconds *)
Theorem unify_spec :
  (forall z, unify (GInt z) = VInt z) /\ (forall z, unify (GInt8 z) = VInt z) /\ (forall z, unify (GInt16 z) = VInt z) /\
  (forall z, unify (GInt32 z) = VInt z) /\ (forall z, unify (GUint8 z) = VInt z) /\ (forall z, unify (GUint16 z) = VInt z) /\
  (forall z, unify (GUint32 z) = VInt z) /\
  (forall z, 0 <= z < two63 -> unify (GUint64 z) = VInt z) /\
  (forall z, two63 <= z < two64 -> unify (GUint64 z) = VInt (z - two64)) /\
  (forall l, unify (GInts l) = VIntL l) /\ (forall l, unify (GInt32s l) = VIntL l) /\
  (forall u, unify (GTime u) = VInt u) /\ (forall ns, unify (GDuration ns) = VInt (Z.quot ns 1000000000)).
Proof.
  assert (0 < two63) by reflexivity. pose proof two64_two63.
  repeat split; try reflexivity; intros z Hz; cbn [unify]; f_equal.
  - apply wrap64_id. lia.
  - rewrite <- (wrap64_id (z - two64)) by lia. apply wrap64_congr.
    rewrite <- (Z.mod_add (z - two64) 1 two64), Z.mul_1_l, Z.sub_add by lia. reflexivity.
Qed.

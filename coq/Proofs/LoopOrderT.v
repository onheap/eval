(* LoopOrderT.v — C12 in the usual vocabulary: 0 followed by the positions that the LOOP events of one Eval, or of one
   TryEval, report is a strictly increasing sequence. *)
Require Import Base FlatE Run LoopOrder EvalTopE TryCorrectE.
From Coq Require Import Sorted.
Open Scope Z_scope.
Open Scope list_scope.

Theorem loops_sorted fetch custom t : LocallySorted Z.lt (0 :: loops (fst (eval fetch custom (compileE t)))).
Proof. apply incr_from_sorted, loops_increasing. Qed.
Theorem try_loops_sorted fetch custom cached t : LocallySorted Z.lt (0 :: loops (fst (tryeval fetch custom cached (compileE t)))).
Proof. apply incr_from_sorted, try_loops_increasing. Qed.

(* GenShape.v — C20: the trees GenerateRandomExpr builds use the eleven operators, `if`, the given variables and
   integer literals in [-50,50), hence: the text it returns is read back by the front end as the generated tree, in any
   configuration that registers the given variables, up to the variable keys, which the text does not show and evaluation
   does not look at (`rok_rekey`, `kleene_rekey`; C20.v carries the reported result over to the tree read back). *)
Require Import Base Opcode Tables Ops Tree TryFacts Lexer Parser LexProofs PrefixProofs DumpText Gen GenText GenProofs
  GenTextProofs OptTotal.
Open Scope Z_scope.
Open Scope list_scope.

Local Notation wf_tok := (wf_tok is_letter_tab is_number_tab).

Definition gops : list str :=
  [ss "and"; ss "or"; ss "eq"; ss "not"; ss "+"; ss "-"; ss "*"; ss "/"; ss "%"; ss "="; ss "!="].

Section S.
  Variable c : gencfg.
  Definition gnames : list str := map fst (g_nums c ++ g_bools c ++ g_dnes c).

  Lemma gops_split : gops = node_ops ++ [ss "="; ss "!="].
  Proof. reflexivity. Qed.

  Lemma in_nine_gops op : In op [ss "and"; ss "or"; ss "eq"; ss "not"; ss "+"; ss "-"; ss "*"; ss "/"; ss "%"] -> In op gops.
  Proof. intros H. rewrite gops_split. apply in_or_app. left. exact H. Qed.

  Lemma in_leaf_gops op : In op [ss "="; ss "!="] -> In op gops.
  Proof. intros H. rewrite gops_split. apply in_or_app. right. exact H. Qed.

  Lemma helper_not_leaf f isb n' s : is_leaf (fst (fst (helper c (S f) isb (S n') s))) = false.
  Proof.
    cbn [helper].
    destruct (draw s 10) as [r s0]. destruct (isb && (r <? 3)).
    { destruct (helper c f isb n' s0) as [[t res] s1]. reflexivity. }
    destruct (g_cond c && (r =? 3)).
    { destruct (draw s0 (Z.of_nat (S n'))) as [k1 s1]. destruct (helper c f true (Z.to_nat k1) s1) as [[ct cr] s2].
      destruct (draw s2 (Z.of_nat (S n'))) as [k2 s3]. destruct (helper c f isb (Z.to_nat k2) s3) as [[tt' tr] s4].
      destruct (draw s4 (Z.of_nat (S n'))) as [k3 s5]. destruct (helper c f isb (Z.to_nat k3) s5) as [[ft fr] s6]. reflexivity. }
    destruct (draw s0 3) as [l0 s1]. destruct (children (helper c f isb) (S n') (Z.to_nat (l0 + 2)) s1) as [chs s2]. reflexivity.
  Qed.

  Theorem generate_not_leaf isb level s : (1 <= level)%nat -> is_leaf (fst (generate c isb level s)) = false.
  Proof. intros Hl. unfold generate. destruct level as [|n']; [inversion Hl|]. apply helper_not_leaf. Qed.

  Variable pc : pconf.
  Definition registers : Prop :=
    forall n, In n gnames -> builtin_const n = None /\ assoc n (p_consts pc) = None /\ (exists k, assoc n (p_vars pc) = Some k) /\
                             wf_tok false (KIdent n).

  (* the tree with the keys of that configuration (the text does not show keys); a name it does not know gets key 0,
     which `registers` rules out for the generator's variables *)
  Fixpoint rekey (t : tree) : tree :=
    match t with
    | TVar n _ => TVar n (match assoc n (p_vars pc) with Some k => k | None => 0 end)
    | TOp name fast cs => TOp name fast (map rekey cs)
    | TIf a b d => TIf (rekey a) (rekey b) (rekey d)
    | _ => t
    end.

  Lemma rekey_fold {A} (F : tree -> A) :
    (forall n k k', F (TVar n k) = F (TVar n k')) ->
    (forall name fast cs cs', map F cs = map F cs' -> F (TOp name fast cs) = F (TOp name fast cs')) ->
    (forall a a' b b' d d', F a = F a' -> F b = F b' -> F d = F d' -> F (TIf a b d) = F (TIf a' b' d')) ->
    forall t, F (rekey t) = F t.
  Proof.
    intros HV HO HI. induction t as [v|n k|name fast cs IH|a b d IHa IHb IHd] using tree_ind2; cbn [rekey].
    - reflexivity.
    - apply HV.
    - apply HO. rewrite map_map. apply map_ext_Forall, IH.
    - apply HI; assumption.
  Qed.

  Lemma gtext_rekey : forall t, gtext (rekey t) = gtext t.
  Proof.
    apply rekey_fold; cbn [gtext].
    - reflexivity.
    - intros name fast cs cs' E. rewrite <- (map_map gtext (cons 32%N) cs), <- (map_map gtext (cons 32%N) cs'), E. reflexivity.
    - intros a a' b b' d d' Ea Eb Ed. rewrite Ea, Eb, Ed. reflexivity.
  Qed.

  (* the trees the front end reads back as themselves *)
  Definition readable (t : tree) : Prop := glex (rekey t) /\ twf pc (rekey t) /\ strip (rekey t) = rekey t.

  Lemma gops_wf name : In name gops -> wf_tok false (KIdent name) /\ is_keyword name = false /\ is_operator pc name = true.
  Proof.
    intros H. unfold gops in H.
    repeat (destruct H as [<-|H]; [split; [word_tok|split; vm_compute; reflexivity]|]). destruct H.
  Qed.

  Lemma readable_op name cs : In name gops -> Forall readable cs -> readable (TOp name false cs).
  Proof.
    intros Hop A. destruct (gops_wf name Hop) as (Hw & Hk & Ho). unfold readable. cbn [rekey]. split; [|split].
    - apply glex_op. split; [exact Hw|]. rewrite Forall_map. eapply Forall_impl; [|exact A]. intros t Ht. apply Ht.
    - apply twf_op. split; [exact Hk|split; [exact Ho|]]. rewrite Forall_map. eapply Forall_impl; [|exact A]. intros t Ht. apply Ht.
    - cbn [strip]. f_equal. rewrite map_map. induction A as [|x l (_ & _ & Hx) _ IHl]; [reflexivity|]. cbn [map]. rewrite Hx, IHl. reflexivity.
  Qed.

  Lemma readable_int z : -50 <= z < 50 -> readable (TConst (VInt z)).
  Proof.
    intros H. assert (Hz : in_i64 z = true) by (apply andb_true_intro; split; [apply Z.leb_le|apply Z.ltb_lt]; unfold two63; lia).
    repeat split; exact Hz.
  Qed.

  (* the generator writes every variable with key 0 (`GenProofs.leaf_of`) *)
  Lemma readable_var v l name : registers -> In (name, v) l -> incl l (g_nums c ++ g_bools c ++ g_dnes c) -> readable (TVar name 0).
  Proof.
    intros HR Hin Hl. destruct (HR name (in_map fst _ _ (Hl _ Hin))) as (Hb & Hc & (k & Hk) & Hw).
    unfold readable. cbn [rekey]. rewrite Hk. cbn [glex twf strip]. auto 6.
  Qed.

  Theorem helper_readable : registers -> forall fuel isb n s, (n < fuel)%nat -> readable (fst (fst (helper c fuel isb n s))).
  Proof.
    intros HR. assert (Z0 : readable (TConst (VInt 0))) by (apply readable_int; lia).
    apply (helper_ind c (fun _ tv => readable (fst tv))); cbn [fst].
    - intros isb tv [isb' name v _ Hin|isb' name v Hin| | |z Hz]; cbn [fst].
      + apply (readable_var v _ name HR Hin). apply incl_appr, incl_appr, incl_refl.
      + apply (readable_var v _ name HR Hin). destruct isb'; [apply incl_appr|]; apply incl_appl, incl_refl.
      + apply readable_op; [apply in_leaf_gops; left; reflexivity|auto].
      + apply readable_op; [apply in_leaf_gops; right; left; reflexivity|auto].
      + apply readable_int, Hz.
    - intros t r G. apply readable_op; [apply in_nine_gops; do 3 right; left; reflexivity|auto].
    - intros isb ct cr tt tr ft fr (A1 & A2 & A3) (B1 & B2 & B3) (D1 & D2 & D3).
      unfold readable. cbn [rekey glex twf strip]. rewrite A3, B3, D3. auto 8.
    - intros isb r chs Hg _. apply readable_op; [apply in_nine_gops, pick_nine|]. rewrite Forall_map. exact Hg.
  Qed.

  (* the text GenerateRandomExpr returns is read back - lexer, parser.check, prefix parser - as the generated tree *)
  Theorem generate_text_parses : registers -> forall isb level s, (1 <= level)%nat ->
    let t := fst (generate c isb level s) in parse_source pc false (gtext t) = Some (rekey t).
  Proof.
    intros HR isb level s Hl t. destruct (helper_readable HR (S level) isb level s (Nat.lt_succ_diag_r level)) as (G & W & S0).
    fold (generate c isb level s) in G, W, S0. fold t in G, W, S0.
    rewrite <- S0, <- (gtext_rekey t). apply gtext_roundtrip; [exact W|exact G|].
    pose proof (generate_not_leaf isb level s Hl) as L. fold t in L. destruct t; try discriminate; reflexivity.
  Qed.
End S.

Section K.
  Variable fetch : str -> Z -> res value.
  Variable custom : str -> list value -> res value.
  Variable pc : pconf.
  Hypothesis fetch_name : forall n k k', fetch n k = fetch n k'.

  Lemma rok_rekey : forall t, rok fetch custom (rekey pc t) = rok fetch custom t.
  Proof.
    apply rekey_fold; cbn [rok].
    - intros n k k'. rewrite (fetch_name n k k'). reflexivity.
    - intros name fast cs cs' E. rewrite E. reflexivity.
    - intros a a' b b' d d' Ea Eb Ed. rewrite Ea, Eb, Ed. reflexivity.
  Qed.

  Variable cached : str -> Z -> bool.
  Hypothesis cached_name : forall n k k', cached n k = cached n k'.

  Lemma kleene_rekey : forall t, kleene fetch custom cached (rekey pc t) = kleene fetch custom cached t.
  Proof.
    apply rekey_fold.
    - intros n k k'. cbn [kleene]. rewrite (cached_name n k k'), (fetch_name n k k'). reflexivity.
    - intros name fast cs cs' E. rewrite !kleene_op, E. reflexivity.
    - intros a a' b b' d d' Ea Eb Ed. cbn [kleene]. rewrite Ea, Eb, Ed. reflexivity.
  Qed.

  Lemma subs_ok_rekey : forall t, subs_ok custom fetch cached t -> subs_ok custom fetch cached (rekey pc t).
  Proof.
    induction t as [v|n k|name fast cs IH|a b d IHa IHb IHd] using tree_ind2; intros H; try exact I.
    - cbn [rekey]. apply subs_ok_op in H. apply subs_ok_op. rewrite Forall_map.
      induction IH as [|x l Hx _ IHl]; [constructor|]. inversion H as [|? ? (H1 & v & H2) H3]; subst.
      constructor; [|apply IHl; exact H3]. split; [apply Hx; exact H1|exists v; rewrite kleene_rekey; exact H2].
    - destruct H as (Ha & Hb & Hd). cbn [rekey TryFacts.subs_ok]. auto.
  Qed.
End K.

Print Assumptions generate_text_parses.

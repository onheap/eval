(* GenTextProofs.v — C20: the text GenerateRandomExpr returns (`gtext` of the generated tree) is the layout of DumpText.v
   with one space in front of every operand, so the proved front end (lexer, parser.check, prefix parser) reads it back
   as that tree. *)
Require Import Base Tables Tree Lexer Parser LexProofs ListFacts PrefixProofs DumpText GenText.
Open Scope Z_scope.
Open Scope list_scope.

Local Notation wf_tok := (wf_tok is_letter_tab is_number_tab).

Definition glead (depth : nat) (c : tree) : str := [32%N].

Lemma glead_space depth c : all_space (glead depth c) /\ glead depth c <> [].
Proof. split; [repeat constructor|discriminate]. Qed.

(* the trees the generator can print: integer literals in range, names the lexer accepts as identifiers *)
Fixpoint glex (t : tree) : Prop :=
  match t with
  | TConst (VInt z) => in_i64 z = true
  | TConst _ => False
  | TVar n _ => wf_tok false (KIdent n)
  | TOp name _ cs =>
    wf_tok false (KIdent name) /\
    (fix all (l : list tree) : Prop := match l with [] => True | a :: l' => glex a /\ all l' end) cs
  | TIf a b d => glex a /\ glex b /\ glex d
  end.

Lemma glex_op name fast cs : glex (TOp name fast cs) <-> wf_tok false (KIdent name) /\ Forall glex cs.
Proof. cbn [glex]. rewrite (all_Forall glex). tauto. Qed.

Lemma glex_lexable : forall t, glex t -> lexable t.
Proof.
  induction t as [v|n k|name fast cs IH|a b d IHa IHb IHd] using tree_ind2.
  - destruct v; cbn [glex]; try contradiction. intros H. exact H.
  - intros H. exact H.
  - rewrite glex_op, lexable_op. intros [Hn Hcs]. split; [exact Hn|exact (Forall_mp _ _ _ IH Hcs)].
  - intros (Ha & Hb & Hd). cbn [lexable]. auto.
Qed.

Lemma render_gtext : forall t, glex t -> forall depth trail, render (items glead t depth trail) = gtext t ++ trail.
Proof.
  induction t as [v|n k|name fast cs IH|a b d IHa IHb IHd] using tree_ind2; intros Hl depth trail.
  - destruct v; cbn [glex] in Hl; try contradiction. cbn [items vitems gtext render tok_text]. rewrite app_nil_r. reflexivity.
  - cbn [items gtext render tok_text]. rewrite app_nil_r. reflexivity.
  - apply glex_op in Hl. destruct Hl as [_ Hcs]. rewrite items_op. cbn [render tok_text app gtext]. rewrite render_app. cbn [render tok_text app].
    rewrite app_nil_r.
    assert (G : next_lead glead depth cs ++ render (items_list glead depth cs) = concat (map (fun c => 32%N :: gtext c) cs)).
    { exact (render_items_list glead (fun c _ => gtext c) depth cs (Forall_mp _ _ _ IH Hcs)). }
    rewrite <- G. rewrite <- !app_assoc. reflexivity.
  - destruct Hl as (Ha & Hb & Hd). cbn [items]. cbn [render tok_text app]. rewrite !render_app, IHa, IHb, IHd by assumption.
    cbn [render tok_text app gtext]. change (ss "(if ") with (40%N :: ss keyword_if ++ [32%N]). unfold glead.
    rewrite !app_nil_r, <- !app_assoc. cbn [app]. rewrite <- !app_assoc. cbn [app]. rewrite <- !app_assoc. reflexivity.
Qed.

Theorem gtext_roundtrip c t : twf c t -> glex t -> is_leaf t = false ->
  parse_source c false (gtext t) = Some (strip t).
Proof.
  intros Hw Hl Hleaf. rewrite <- (app_nil_r (gtext t)), <- (render_gtext t Hl 0%nat).
  apply (layout_roundtrip glead glead_space); [exact Hw|apply glex_lexable, Hl|exact Hleaf].
Qed.

Print Assumptions gtext_roundtrip.

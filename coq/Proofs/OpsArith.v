(* OpsArith.v — the scalar operators of Model/Ops.v against exact arithmetic over Z (C18): wrapping the accumulator at
   every step of add/sub/mul is wrapping the exact fold once, because wrap64 is reduction modulo 2^64; division keeps its
   wrap at every step. The alias tables are finite and checked by evaluation. *)
Require Import Base Opcode Tables Ops OpsList.
Open Scope Z_scope.

Lemma two64_two63 : two64 = two63 + two63.
Proof. reflexivity. Qed.

Lemma wrap64_range z : - two63 <= wrap64 z < two63.
Proof. unfold wrap64. pose proof (Z.mod_pos_bound (z + two63) two64 eq_refl). pose proof two64_two63. lia. Qed.

Lemma wrap64_id z : - two63 <= z < two63 -> wrap64 z = z.
Proof. intros H. unfold wrap64. pose proof two64_two63. rewrite Z.mod_small; lia. Qed.

Lemma in_i64_range z : in_i64 z = true <-> - two63 <= z < two63.
Proof. unfold in_i64. rewrite andb_true_iff, Z.leb_le, Z.ltb_lt. reflexivity. Qed.

Lemma wrap64_in z : in_i64 (wrap64 z) = true.
Proof. apply in_i64_range, wrap64_range. Qed.

Lemma wrap64_mod z : wrap64 z mod two64 = z mod two64.
Proof. unfold wrap64. rewrite Zminus_mod_idemp_l, Z.add_simpl_r. reflexivity. Qed.

Lemma wrap64_congr a b : a mod two64 = b mod two64 -> wrap64 a = wrap64 b.
Proof.
  unfold wrap64. intros H.
  rewrite <- (Zplus_mod_idemp_l a), <- (Zplus_mod_idemp_l b), H. reflexivity.
Qed.

Lemma wrap64_add_l a b : wrap64 (wrap64 a + b) = wrap64 (a + b).
Proof. apply wrap64_congr. rewrite <- Zplus_mod_idemp_l, wrap64_mod, Zplus_mod_idemp_l. reflexivity. Qed.

Lemma wrap64_sub_l a b : wrap64 (wrap64 a - b) = wrap64 (a - b).
Proof. apply wrap64_congr. rewrite <- Zminus_mod_idemp_l, wrap64_mod, Zminus_mod_idemp_l. reflexivity. Qed.

Lemma wrap64_mul_l a b : wrap64 (wrap64 a * b) = wrap64 (a * b).
Proof. apply wrap64_congr. rewrite <- Zmult_mod_idemp_l, wrap64_mod, Zmult_mod_idemp_l. reflexivity. Qed.

Definition ints (l : list Z) : list value := map VInt l.

Definition sumZ (l : list Z) : Z := fold_left Z.add l 0.

Lemma ints_length l : length (ints l) = length l.
Proof. apply map_length. Qed.

Lemma ints_cons v l : ints (v :: l) = VInt v :: ints l.
Proof. reflexivity. Qed.

Definition zop (m : amode) : Z -> Z -> Z :=
  match m with AAdd => Z.add | ASub => Z.sub | AMul => Z.mul | ADiv => Z.quot | AMod => Z.rem end.

Definition div_name (m : amode) : str := match m with ADiv => ss "div" | _ => ss "mod" end.

Definition divides (m : amode) : bool := match m with ADiv | AMod => true | _ => false end.

Lemma arith_step_spec m acc v :
  arith_step m acc v = if divides m && (v =? 0) then Err (EExec (div_name m)) else Ok (wrap64 (zop m acc v)).
Proof. destruct m; reflexivity. Qed.

Lemma wrap64_zop_l m a b : m = AAdd \/ m = ASub \/ m = AMul -> wrap64 (zop m (wrap64 a) b) = wrap64 (zop m a b).
Proof. intros [->|[->| ->]]; [apply wrap64_add_l|apply wrap64_sub_l|apply wrap64_mul_l]. Qed.

Lemma arith_loop_ring m acc vs : m = AAdd \/ m = ASub \/ m = AMul ->
  arith_loop m (wrap64 acc) (ints vs) = Ok (VInt (wrap64 (fold_left (zop m) vs acc))).
Proof.
  intros Hm. revert acc. induction vs as [|v vs IH]; intros acc; [reflexivity|].
  cbn [ints map arith_loop fold_left]. rewrite arith_step_spec.
  replace (divides m) with false by (destruct Hm as [->|[->| ->]]; reflexivity). cbn [andb bind].
  rewrite wrap64_zop_l by exact Hm. apply IH.
Qed.

(* only the first operand is asked to be in range: `arith` starts from it as it is and wraps from the first step on *)
Theorem arith_ring_fold m v w vs :
  m = AAdd \/ m = ASub \/ m = AMul ->
  in_i64 v = true ->
  arith m (ints (v :: w :: vs)) = Ok (VInt (wrap64 (fold_left (zop m) (w :: vs) v))).
Proof.
  intros Hm Hv. unfold arith. rewrite ints_length, ints_cons. cbn [length Nat.ltb Nat.leb].
  rewrite <- (wrap64_id v) at 1 by apply in_i64_range, Hv. apply arith_loop_ring, Hm.
Qed.

(* division / modulo: truncated, wrapped at every step (MinInt64 / -1 = MinInt64), error at the first zero divisor *)
Fixpoint divfold (m : amode) (acc : Z) (vs : list Z) : Z :=
  match vs with [] => acc | v :: vs' => divfold m (wrap64 (zop m acc v)) vs' end.

Lemma arith_loop_div m acc vs :
  m = ADiv \/ m = AMod ->
  arith_loop m acc (ints vs) =
    if existsb (Z.eqb 0) vs then Err (EExec (div_name m)) else Ok (VInt (divfold m acc vs)).
Proof.
  intros Hm. revert acc. induction vs as [|v vs IH]; intros acc; [reflexivity|].
  cbn [ints map arith_loop existsb divfold]. rewrite arith_step_spec, (Z.eqb_sym v 0).
  replace (divides m) with true by (destruct Hm as [->| ->]; reflexivity).
  destruct (0 =? v); [reflexivity|apply IH].
Qed.

Theorem arith_div_fold m v w vs :
  m = ADiv \/ m = AMod ->
  arith m (ints (v :: w :: vs)) =
    if existsb (Z.eqb 0) (w :: vs) then Err (EExec (div_name m)) else Ok (VInt (divfold m v (w :: vs))).
Proof.
  intros Hm. unfold arith. rewrite ints_length. cbn [length Nat.ltb Nat.leb].
  rewrite ints_cons. apply arith_loop_div; exact Hm.
Qed.

Corollary arith_div_zero_anywhere m v pre post :
  m = ADiv \/ m = AMod ->
  arith m (ints (v :: pre ++ 0 :: post)) = Err (EExec (div_name m)).
Proof.
  intros Hm. assert (E : existsb (Z.eqb 0) (pre ++ 0 :: post) = true).
  { rewrite existsb_app. apply orb_true_r. }
  destruct pre as [|w pre]; cbn [app] in *; rewrite arith_div_fold, E by exact Hm; reflexivity.
Qed.

Lemma divfold_range m acc vs : vs <> [] -> - two63 <= divfold m acc vs < two63.
Proof.
  revert acc. induction vs as [|v vs IH]; intros acc Hne; [congruence|].
  cbn [divfold]. destruct vs as [|v' vs'].
  - cbn [divfold]. apply wrap64_range.
  - apply IH. congruence.
Qed.

Lemma arith_loop_range m acc vs z :
  in_i64 acc = true -> arith_loop m acc (ints vs) = Ok (VInt z) -> in_i64 z = true.
Proof.
  revert acc. induction vs as [|v vs IH]; intros acc Hacc H; cbn [ints map arith_loop] in H.
  - injection H as <-. exact Hacc.
  - rewrite arith_step_spec in H. destruct (divides m && (v =? 0)); [discriminate|].
    exact (IH _ (wrap64_in _) H).
Qed.

Theorem arith_result_in_range m v vs z :
  in_i64 v = true -> arith m (ints (v :: vs)) = Ok (VInt z) -> in_i64 z = true.
Proof.
  intros Hv H. unfold arith in H. destruct (length (ints (v :: vs)) <? 2)%nat; [discriminate|].
  exact (arith_loop_range _ _ _ _ Hv H).
Qed.

Theorem arith_count_error m ps : (length ps < 2)%nat -> arith m ps = Err (ECount (mname (amode_key m))).
Proof. intros H. unfold arith. rewrite (proj2 (Nat.ltb_lt _ _) H). reflexivity. Qed.

Definition is_int (v : value) : bool := match v with VInt _ => true | _ => false end.

Lemma arith_loop_ok_ints m acc ps r : arith_loop m acc ps = Ok r -> forallb is_int ps = true.
Proof.
  revert acc. induction ps as [|p ps IH]; intros acc H; [reflexivity|].
  cbn [arith_loop] in H. destruct p; try discriminate H.
  destruct (arith_step m acc z); [|discriminate]. exact (IH _ H).
Qed.

Theorem arith_ok_needs_ints m ps r : arith m ps = Ok r -> (2 <= length ps)%nat /\ forallb is_int ps = true.
Proof.
  unfold arith. destruct (Nat.ltb_spec (length ps) 2) as [|Hl]; [discriminate|].
  intros H. split; [exact Hl|]. destruct ps as [|p ps]; [discriminate|]. destruct p; try discriminate H.
  exact (arith_loop_ok_ints _ _ _ _ H).
Qed.

Lemma arith_loop_errors m acc ps e : arith_loop m acc ps = Err e ->
  e = EType (mname (amode_key m)) \/ e = EExec (div_name m).
Proof.
  revert acc. induction ps as [|p ps IH]; intros acc H; [discriminate|].
  cbn [arith_loop] in H. destruct p; try (injection H as <-; left; reflexivity).
  rewrite arith_step_spec in H. destruct (divides m && (z =? 0)); [injection H as <-; right; reflexivity|exact (IH _ H)].
Qed.

Theorem arith_never_other_error m ps e : arith m ps = Err e ->
  e = ECount (mname (amode_key m)) \/ e = EType (mname (amode_key m)) \/ e = EExec (div_name m).
Proof.
  unfold arith. destruct (length ps <? 2)%nat; [intros [= <-]; left; reflexivity|].
  destruct ps as [|p ps]; [|destruct p]; try (intros [= <-]; right; left; reflexivity).
  intros H. right. exact (arith_loop_errors _ _ _ _ H).
Qed.

Definition bools (l : list bool) : list value := map VBool l.

Lemma logic_loop_fold m acc bs : logic_loop m acc (bools bs) = Ok (VBool (fold_left (logic_step m) bs acc)).
Proof. revert acc. induction bs as [|b bs IH]; intros acc; cbn [bools map logic_loop fold_left]; [reflexivity|apply IH]. Qed.

Theorem logic_fold m a b bs : logic m (bools (a :: b :: bs)) = Ok (VBool (fold_left (logic_step m) (b :: bs) a)).
Proof.
  unfold logic, bools. rewrite map_length. cbn [length Nat.ltb Nat.leb map].
  change (VBool b :: map VBool bs) with (bools (b :: bs)). apply logic_loop_fold.
Qed.

Lemma fold_and bs acc : fold_left (logic_step LAnd) bs acc = acc && forallb (fun x => x) bs.
Proof.
  revert acc. induction bs as [|b bs IH]; intros acc; cbn [fold_left forallb logic_step].
  - symmetry. apply andb_true_r.
  - rewrite IH. symmetry. apply andb_assoc.
Qed.
Lemma fold_or bs acc : fold_left (logic_step LOr) bs acc = acc || existsb (fun x => x) bs.
Proof.
  revert acc. induction bs as [|b bs IH]; intros acc; cbn [fold_left existsb logic_step].
  - symmetry. apply orb_false_r.
  - rewrite IH. symmetry. apply orb_assoc.
Qed.

Theorem logic_and_all a b bs : logic LAnd (bools (a :: b :: bs)) = Ok (VBool (forallb (fun x => x) (a :: b :: bs))).
Proof. rewrite logic_fold, fold_and. reflexivity. Qed.
Theorem logic_or_any a b bs : logic LOr (bools (a :: b :: bs)) = Ok (VBool (existsb (fun x => x) (a :: b :: bs))).
Proof. rewrite logic_fold, fold_or. reflexivity. Qed.

Theorem logic_count_error m ps : (length ps < 2)%nat -> logic m ps = Err (ECount (mname (lmode_key m))).
Proof. intros H. unfold logic. rewrite (proj2 (Nat.ltb_lt _ _) H). reflexivity. Qed.

Definition is_bool (v : value) : bool := match v with VBool _ => true | _ => false end.

Lemma logic_loop_type m acc ps : forallb is_bool ps = false -> logic_loop m acc ps = Err (EType (mname (lmode_key m))).
Proof.
  revert acc. induction ps as [|p ps IH]; intros acc H; [discriminate|].
  cbn [logic_loop]. destruct p; try reflexivity. apply IH, H.
Qed.

Theorem logic_type_error m ps : (2 <= length ps)%nat -> forallb is_bool ps = false ->
  logic m ps = Err (EType (mname (lmode_key m))).
Proof.
  intros Hl H. unfold logic. rewrite (proj2 (Nat.ltb_ge _ _) Hl).
  destruct ps as [|p ps]; [discriminate|]. destruct p; try reflexivity. apply logic_loop_type, H.
Qed.

Lemma all_bools_inv ps : forallb is_bool ps = true -> exists bs, ps = bools bs.
Proof.
  induction ps as [|p ps IH]; intros H; [exists []; reflexivity|].
  cbn [forallb] in H. apply andb_prop in H. destruct H as [Hp Hps]. destruct (IH Hps) as [bs ->].
  destruct p; try discriminate. exists (b :: bs). reflexivity.
Qed.

Lemma logic_ok_inv m ps r : logic m ps = Ok r -> exists bs, ps = bools bs /\ (2 <= length bs)%nat.
Proof.
  intros H. destruct (Nat.lt_ge_cases (length ps) 2) as [Hl|Hl].
  - rewrite logic_count_error in H by exact Hl. discriminate.
  - destruct (forallb is_bool ps) eqn:Hb.
    + destruct (all_bools_inv _ Hb) as [bs ->]. exists bs. split; [reflexivity|]. unfold bools in Hl. rewrite map_length in Hl. exact Hl.
    + rewrite logic_type_error in H by assumption. discriminate.
Qed.

Theorem cmp_gt_flip i j : cmp CGt [VInt i; VInt j] = cmp CLt [VInt j; VInt i].
Proof. cbn. rewrite Z.gtb_ltb. reflexivity. Qed.

Lemma value_eqb_refl_int i j : value_eqb (VInt i) (VInt j) = (i =? j).
Proof. reflexivity. Qed.

Lemma go_eq_refl a : comparable a = true -> go_eq a a = true.
Proof.
  destruct a; try discriminate; intros _; cbn.
  - apply Z.eqb_refl.
  - apply eqb_reflx.
  - apply str_eqb_refl.
  - reflexivity.
  - reflexivity.
  - apply N.eqb_refl.
Qed.

Theorem eq_nary a ps : (1 <= length ps)%nat -> forallb comparable (a :: ps) = true ->
  cmp_eq (a :: ps) = Ok (VBool (forallb (go_eq a) ps)).
Proof.
  intros Hl Hc. unfold cmp_eq. destruct ps as [|b ps]; [inversion Hl|].
  cbn [length Nat.ltb Nat.leb]. rewrite Hc. cbn [negb]. apply andb_prop in Hc.
  destruct ps; cbn [forallb]; [rewrite andb_true_r|rewrite go_eq_refl by apply Hc]; reflexivity.
Qed.

(* the alias groups the property names *)
Definition alias_groups : list (string * list string) := [
  ("add", ["+"]); ("sub", ["-"]); ("mul", ["*"]); ("div", ["/"]); ("mod", ["%"]);
  ("and", ["&"; "&&"]); ("or", ["|"; "||"]); ("not", ["!"]);
  ("eq", ["="; "=="]); ("ne", ["!="]); ("gt", [">"]); ("lt", ["<"]); ("ge", [">="]); ("le", ["<="]);
  ("date", ["to_date"]); ("datetime", ["to_datetime"]); ("version", ["to_version"])
]%string.

Definition canonical : list (string * opcode) := [
  ("add", OArith AAdd); ("sub", OArith ASub); ("mul", OArith AMul); ("div", OArith ADiv); ("mod", OArith AMod);
  ("and", OLogic LAnd); ("or", OLogic LOr); ("xor", OLogic LXor); ("not", ONot);
  ("eq", OEq); ("ne", ONe); ("gt", OCmp CGt); ("lt", OCmp CLt); ("ge", OCmp CGe); ("le", OCmp CLe);
  ("between", OBetween); ("in", OIn); ("overlap", OOverlap)
]%string.

Definition opt_opcode_eqb (a b : option opcode) : bool :=
  match a, b with Some x, Some y => opcode_eqb x y | _, _ => false end.

Definition aliases_ok : bool :=
  forallb (fun g => forallb (fun al => opt_opcode_eqb (assoc_s al builtin_table) (assoc_s (fst g) builtin_table)) (snd g)) alias_groups.
Definition canonical_ok : bool :=
  forallb (fun c => opt_opcode_eqb (assoc_s (fst c) builtin_table) (Some (snd c))) canonical.
(* no name is listed twice with different opcodes (Go map literal: duplicate keys do not compile; the translator keeps source order) *)
Definition table_functional : bool :=
  forallb (fun e => opt_opcode_eqb (assoc_s (fst e) builtin_table) (Some (snd e))) builtin_table.
Definition conversion_names : list string :=
  ["date"; "datetime"; "to_date"; "to_datetime"; "t_time"; "t_date"; "td_time"; "td_date"; "version"; "t_version"; "to_version"]%string.
Definition known_names : list string :=
  map fst canonical ++ flat_map snd alias_groups ++ conversion_names.
Definition no_other_names : bool :=
  forallb (fun e => existsb (String.eqb (fst e)) known_names) builtin_table.

Lemma opcode_eqb_eq a b : opcode_eqb a b = true -> a = b.
Proof.
  destruct a, b; try discriminate; try reflexivity; cbn [opcode_eqb]; intros H.
  - destruct m, m0; try discriminate; reflexivity.
  - destruct m, m0; try discriminate; reflexivity.
  - destruct m, m0; try discriminate; reflexivity.
  - apply andb_prop in H. destruct H as [H1 H2]. apply String.eqb_eq in H2. subst.
    destruct m, m0; try discriminate; reflexivity.
  - apply andb_prop in H. destruct H as [H1 H2]. apply Z.eqb_eq in H2. subst.
    destruct m, m0; try discriminate; reflexivity.
Qed.

Theorem alias_same : aliases_ok = true /\ canonical_ok = true /\ table_functional = true /\ no_other_names = true.
Proof. vm_compute. repeat split. Qed.

Theorem alias_apply g al : In (g, al) (flat_map (fun p => map (fun a => (fst p, a)) (snd p)) alias_groups) ->
  exists o, assoc_s al builtin_table = Some o /\ assoc_s g builtin_table = Some o.
Proof.
  intros H. pose proof alias_same as [Ha _]. unfold aliases_ok in Ha.
  apply in_flat_map in H. destruct H as [p [Hp Hin]]. apply in_map_iff in Hin. destruct Hin as [a [Heq Hina]].
  inversion Heq; subst. rewrite forallb_forall in Ha. specialize (Ha p Hp). rewrite forallb_forall in Ha. specialize (Ha al Hina).
  unfold opt_opcode_eqb in Ha. destruct (assoc_s al builtin_table) as [x|]; [|discriminate].
  destruct (assoc_s (fst p) builtin_table) as [y|]; [|discriminate]. apply opcode_eqb_eq in Ha. subst. eauto.
Qed.

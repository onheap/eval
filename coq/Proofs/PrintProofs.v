(* PrintProofs.v — strconv.ParseInt inverts the decimal printer used by Dump (strconv.FormatInt), on all of int64. *)
Require Import Base Ops Print.
From Coq Require Import ZifyBool ZifyN.
Open Scope Z_scope.
Open Scope list_scope.

Lemma digit_char n : 0 <= n < 10 -> is_digit (Z.to_N (48 + n)) = true /\ digit_val (Z.to_N (48 + n)) = n.
Proof. intros H. unfold is_digit, digit_val. split; lia. Qed.

(* with enough fuel the printer puts digits in front of acc, at least one, and they read back as n (p is 10 to their
   number) *)
Lemma show_digits_spec fuel : forall n acc, 0 <= n < 10 ^ Z.of_nat (S fuel) ->
  exists d more p, show_digits (S fuel) n acc = d :: more ++ acc /\ Forall (fun d => is_digit d = true) (d :: more) /\
    forall a rest, digits_val a (d :: more ++ rest) = digits_val (a * p + n) rest.
Proof.
  assert (Hlast : forall n acc, 0 <= n < 10 -> exists d more p, Z.to_N (48 + n) :: acc = d :: more ++ acc /\
            Forall (fun d => is_digit d = true) (d :: more) /\ forall a rest, digits_val a (d :: more ++ rest) = digits_val (a * p + n) rest).
  { intros n acc Hn. destruct (digit_char n Hn) as [D1 D2]. exists (Z.to_N (48 + n)), [], 10. split; [reflexivity|]. split; [repeat constructor; exact D1|].
    intros a rest. cbn [app digits_val]. rewrite D1, D2. reflexivity. }
  induction fuel as [|f IH]; intros n acc Hn; cbn [show_digits]; destruct (Z.ltb_spec n 10) as [E|E]; try (apply Hlast; lia).
  - change (10 ^ Z.of_nat 1) with 10 in Hn. lia.
  - assert (Hq : 0 <= n / 10 < 10 ^ Z.of_nat (S f)).
    { rewrite (Nat2Z.inj_succ (S f)), Z.pow_succ_r in Hn by apply Nat2Z.is_nonneg. split; [apply Z.div_pos|apply Z.div_lt_upper_bound]; lia. }
    pose proof (Z.mod_pos_bound n 10 eq_refl) as Hm. pose proof (Z.div_mod n 10 ltac:(discriminate)) as Hdm.
    destruct (digit_char (n mod 10) Hm) as [D1 D2].
    destruct (IH (n / 10) (Z.to_N (48 + n mod 10) :: acc) Hq) as (d & more & p & E1 & Hd & Hv).
    exists d, (more ++ [Z.to_N (48 + n mod 10)]), (p * 10). cbn [show_digits] in E1. rewrite E1, <- app_assoc. split; [reflexivity|]. split.
    + rewrite app_comm_cons. apply Forall_app. split; [exact Hd|repeat constructor; exact D1].
    + intros a rest. rewrite <- app_assoc, Hv. cbn [app digits_val]. rewrite D1, D2.
      apply (f_equal (fun v => digits_val v rest)). clear -Hdm. lia.
Qed.

Lemma show_Z_shape z : in_i64 z = true -> exists d more, Forall (fun d => is_digit d = true) (d :: more) /\
  digits_val 0 (d :: more) = Some (Z.abs z) /\ show_Z z = if z <? 0 then 45%N :: d :: more else d :: more.
Proof.
  (* 25 is the fuel `Print.show_Z` gives `show_digits`, one unit per digit; an int64 has at most 19 *)
  intros H. assert (Hz : 0 <= Z.abs z < 10 ^ Z.of_nat 25) by (unfold in_i64, two63 in H; change (10 ^ Z.of_nat 25) with 10000000000000000000000000; lia).
  destruct (show_digits_spec 24 (Z.abs z) [] Hz) as (d & more & p & E & Hd & Hv). rewrite app_nil_r in E.
  exists d, more. split; [exact Hd|]. split.
  - specialize (Hv 0 []). rewrite app_nil_r in Hv. rewrite Hv. reflexivity.
  - unfold show_Z. destruct (Z.ltb_spec z 0); [rewrite <- Z.abs_neq by lia|rewrite <- (Z.abs_eq z) at 1 by lia]; rewrite E; reflexivity.
Qed.

(* `parse_int` after its sign: `body` is what should be digits, `neg` whether the sign was `-` *)
Definition pbody (neg : bool) (body : str) : option Z :=
  match body with
  | [] => None
  | _ => match digits_val 0 body with
         | Some v => let v' := if neg then - v else v in if in_i64 v' then Some v' else None
         | None => None
         end
  end.

(* `parse_int` finds the sign by a `match` on the literals 43 and 45, which is a nest of matches on `positive`: no
   hypothesis about the character rewrites it. This is the same dispatch by `N.eqb` *)
Lemma parse_int_if s : parse_int s =
  match s with [] => None | c :: r => if (c =? 43)%N then pbody false r else if (c =? 45)%N then pbody true r else pbody false s end.
Proof.
  destruct s as [|c r]; [reflexivity|]. destruct c as [|p]; [reflexivity|].
  do 6 (try (destruct p as [p|p|]); try reflexivity).
Qed.

Lemma parse_int_digits d more : is_digit d = true ->
  parse_int (d :: more) = match digits_val 0 (d :: more) with Some v => if in_i64 v then Some v else None | None => None end.
Proof.
  intros Hd. rewrite parse_int_if. unfold is_digit in Hd.
  replace (d =? 43)%N with false by lia. replace (d =? 45)%N with false by lia. reflexivity.
Qed.

Theorem parse_show_Z z : in_i64 z = true -> parse_int (show_Z z) = Some z.
Proof.
  intros H. destruct (show_Z_shape z H) as (d & more & Hd & Hv & ->). inversion Hd as [|? ? Hd1 _]; subst.
  destruct (Z.ltb_spec z 0) as [E|E].
  - unfold parse_int. rewrite Hv, Z.abs_neq, Z.opp_involutive, H by lia. reflexivity.
  - rewrite (parse_int_digits d more Hd1), Hv, Z.abs_eq, H by exact E. reflexivity.
Qed.

(* OpsDate.v — civil date/time -> Unix seconds is strictly monotone (C19, date half). *)
Require Import Base Ops.
Open Scope Z_scope.

Definition valid_date (y m d : Z) : Prop := 1 <= m <= 12 /\ 1 <= d <= days_in m y.

Definition date_lt (y1 m1 d1 y2 m2 d2 : Z) : Prop :=
  y1 < y2 \/ (y1 = y2 /\ (m1 < m2 \/ (m1 = m2 /\ d1 < d2))).

(* days_from_civil counts in years that begin on 1 March, so that the leap day comes last:
   a date is (year myear, month mmonth with March = 0, day d); gdays y days lie before 1 March of year y
   and mdays k days of a year before the first of its month k. A month ends where the next begins (month_end), February
   where the next such year begins (feb_end): so a valid date lies before the first of every later month. *)
Definition gdays (y : Z) : Z := 365 * y + y / 4 - y / 100 + y / 400.
Definition mdays (k : Z) : Z := (153 * k + 2) / 5.
Definition myear (y m : Z) : Z := if m <=? 2 then y - 1 else y.
Definition mmonth (m : Z) : Z := if m <=? 2 then m + 9 else m - 3.

Lemma dfc_shifted y m d : days_from_civil y m d = gdays (myear y m) + mdays (mmonth m) + d - 1 - 719468.
Proof. reflexivity. Qed.

Lemma shifted_lt y1 m1 y2 m2 : 1 <= m1 <= 12 -> 1 <= m2 <= 12 -> y1 < y2 \/ (y1 = y2 /\ m1 < m2) ->
  myear y1 m1 < myear y2 m2 \/ (myear y1 m1 = myear y2 m2 /\ mmonth m1 < mmonth m2).
Proof. unfold myear, mmonth. destruct (Z.leb_spec m1 2), (Z.leb_spec m2 2); lia. Qed.

Lemma mdays_mono a b : a <= b -> mdays a <= mdays b.
Proof. intros H. apply Z.div_le_mono; lia. Qed.

Lemma days_in_feb y : days_in 2 y = if is_leap y then 29 else 28.
Proof. reflexivity. Qed.

Lemma month_end m y : 1 <= m <= 12 -> m <> 2 -> mdays (mmonth m) + days_in m y = mdays (mmonth m + 1).
Proof.
  intros Hm H2.
  assert (Hc : m = 1 \/ m = 3 \/ m = 4 \/ m = 5 \/ m = 6 \/ m = 7 \/ m = 8 \/ m = 9 \/ m = 10 \/ m = 11 \/ m = 12) by lia.
  destruct Hc as [->|[->|[->|[->|[->|[->|[->|[->|[->|[->| ->]]]]]]]]]]; reflexivity.
Qed.

Lemma div_succ y k : 0 < k -> (y + 1) / k = y / k + if (y + 1) mod k =? 0 then 1 else 0.
Proof.
  intros Hk. pose proof (Z.div_mod (y + 1) k) as E. pose proof (Z.mod_pos_bound (y + 1) k Hk) as R.
  destruct (Z.eqb_spec ((y + 1) mod k) 0) as [Z0|NZ].
  - rewrite <- (Z.div_unique y k ((y + 1) / k - 1) (k - 1)); lia.
  - rewrite <- (Z.div_unique y k ((y + 1) / k) ((y + 1) mod k - 1)); lia.
Qed.

Lemma mod_400_100_4 n :
  ((n mod 400 =? 0) = true -> (n mod 100 =? 0) = true) /\ ((n mod 100 =? 0) = true -> (n mod 4 =? 0) = true).
Proof. rewrite !Z.eqb_eq. Z.div_mod_to_equations. lia. Qed.

(* each quotient in gdays steps at the multiples of its divisor, and these are nested: the three steps make the leap rule *)
Lemma gdays_succ y : gdays (y + 1) = gdays y + if is_leap (y + 1) then 366 else 365.
Proof.
  unfold gdays, is_leap. rewrite !div_succ by reflexivity. destruct (mod_400_100_4 (y + 1)) as [H1 H2].
  destruct ((y + 1) mod 4 =? 0), ((y + 1) mod 100 =? 0), ((y + 1) mod 400 =? 0);
    try discriminate (H1 eq_refl); try discriminate (H2 eq_refl); cbn [andb orb negb]; lia.
Qed.

Lemma gdays_mono y1 y2 : y1 <= y2 -> gdays y1 <= gdays y2.
Proof. unfold gdays. Z.div_mod_to_equations. lia. Qed.

Lemma feb_end y : gdays (myear y 2) + mdays (mmonth 2) + days_in 2 y = gdays (myear y 2 + 1).
Proof.
  rewrite gdays_succ. change (myear y 2) with (y - 1). rewrite Z.sub_add.
  rewrite days_in_feb. change (mdays (mmonth 2)) with 337.
  destruct (is_leap y); lia.
Qed.

Lemma mmonth_range m : 1 <= m <= 12 -> 0 <= mmonth m <= 11 /\ (m <> 2 -> mmonth m < 11).
Proof. intros H. unfold mmonth. destruct (Z.leb_spec m 2); lia. Qed.

Lemma year_end y m d : valid_date y m d -> gdays (myear y m) + mdays (mmonth m) + d <= gdays (myear y m + 1).
Proof.
  intros [Hm [_ Hd]]. destruct (Z.eq_dec m 2) as [->|H2].
  - rewrite <- feb_end. lia.
  - pose proof (month_end m y Hm H2). pose proof (mdays_mono (mmonth m + 1) 11) as M. change (mdays 11) with 337 in M.
    destruct (mmonth_range m Hm) as [_ R]. rewrite gdays_succ. destruct (is_leap (myear y m + 1)); lia.
Qed.

Lemma before_later_month y1 m1 d1 y2 m2 : valid_date y1 m1 d1 -> 1 <= m2 <= 12 -> y1 < y2 \/ (y1 = y2 /\ m1 < m2) ->
  gdays (myear y1 m1) + mdays (mmonth m1) + d1 <= gdays (myear y2 m2) + mdays (mmonth m2).
Proof.
  intros V1 Hm2 H. pose proof V1 as [Hm1 [_ Hd1]].
  destruct (mmonth_range m1 Hm1) as [_ R1]. destruct (mmonth_range m2 Hm2) as [R2 _].
  destruct (shifted_lt y1 m1 y2 m2 Hm1 Hm2 H) as [Hys | [E Hmp]].
  - pose proof (year_end y1 m1 d1 V1). pose proof (gdays_mono (myear y1 m1 + 1) (myear y2 m2)).
    pose proof (mdays_mono 0 (mmonth m2)) as M. change (mdays 0) with 0 in M. lia.
  - rewrite E. assert (H2 : m1 <> 2) by (intros ->; change (mmonth 2) with 11 in Hmp; lia).
    pose proof (month_end m1 y1 Hm1 H2). pose proof (mdays_mono (mmonth m1 + 1) (mmonth m2)). lia.
Qed.

Theorem civil_monotone y1 m1 d1 y2 m2 d2 :
  valid_date y1 m1 d1 -> valid_date y2 m2 d2 -> date_lt y1 m1 d1 y2 m2 d2 ->
  days_from_civil y1 m1 d1 < days_from_civil y2 m2 d2.
Proof.
  intros V1 [Hm2 [Hd2 _]] Hlt. rewrite !dfc_shifted. destruct Hlt as [Hy | [Ey [Hm | [-> Hd]]]].
  - pose proof (before_later_month y1 m1 d1 y2 m2 V1 Hm2 (or_introl Hy)). lia.
  - pose proof (before_later_month y1 m1 d1 y2 m2 V1 Hm2 (or_intror (conj Ey Hm))). lia.
  - rewrite Ey. lia.
Qed.

Definition valid_tm (t : tm) : Prop :=
  valid_date (t_y t) (t_mo t) (t_d t) /\ 0 <= t_h t < 24 /\ 0 <= t_mi t < 60 /\ 0 <= t_s t < 60.

Definition secs (t : tm) : Z := t_h t * 3600 + t_mi t * 60 + t_s t.

Definition tm_lt (a b : tm) : Prop :=
  date_lt (t_y a) (t_mo a) (t_d a) (t_y b) (t_mo b) (t_d b) \/
  ((t_y a, t_mo a, t_d a) = (t_y b, t_mo b, t_d b) /\
   (t_h a < t_h b \/ (t_h a = t_h b /\ (t_mi a < t_mi b \/ (t_mi a = t_mi b /\ t_s a < t_s b))))).

Theorem unix_monotone a b : valid_tm a -> valid_tm b -> tm_lt a b -> unix_of a < unix_of b.
Proof.
  intros [Hda [Hha [Hma Hsa]]] [Hdb [Hhb [Hmb Hsb]]] [Hlt | [Heq Ht]]; unfold unix_of.
  - pose proof (civil_monotone _ _ _ _ _ _ Hda Hdb Hlt). lia.
  - inversion Heq as [[E1 E2 E3]]. rewrite E1, E2, E3. lia.
Qed.

Theorem date_is_midnight y m d :
  unix_of {| t_y := y; t_mo := m; t_d := d; t_h := 0; t_mi := 0; t_s := 0 |} = days_from_civil y m d * 86400.
Proof. unfold unix_of. cbn. lia. Qed.

Example epoch : days_from_civil 1970 1 1 = 0. Proof. reflexivity. Qed.
Example y2k : days_from_civil 2000 3 1 = 11017. Proof. reflexivity. Qed.

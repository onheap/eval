(* Pass.v — the shape the optimiser's passes share. Each rewrites a tree bottom-up: leaves stay, an `if` keeps its
   shape, an operator node is rebuilt from its already rewritten operands by a function of the pass (`node`). So a
   relation between a tree and its image needs to be checked at that one step only, and `optimize`, a chain of
   passes, inherits every reflexive and transitive relation the four passes have. *)
Require Import Base Tables Ops Tree Opt TableFacts ListFacts.
Open Scope list_scope.

Definition is_pass (p : tree -> tree) (node : str -> bool -> list tree -> tree) : Prop :=
  (forall t, is_leaf t = true -> p t = t) /\
  (forall n f cs, p (TOp n f cs) = node n f (map p cs)) /\
  (forall c t f, p (TIf c t f) = TIf (p c) (p t) (p f)).

Section Rel.
  Variables (p : tree -> tree) (node : str -> bool -> list tree -> tree).
  Hypothesis Hp : is_pass p node.

  Theorem pass_rel (R : tree -> tree -> Prop) :
    (forall t, is_leaf t = true -> R t t) ->
    (forall n f cs cs', Forall2 R cs cs' -> R (TOp n f cs) (node n f cs')) ->
    (forall c t f c' t' f', R c c' -> R t t' -> R f f' -> R (TIf c t f) (TIf c' t' f')) ->
    forall t, R t (p t).
  Proof.
    destruct Hp as (Hl & Ho & Hi). intros Rl Ro Ri.
    induction t as [v|n k|n f cs IH|c t f IHc IHt IHf] using tree_ind2.
    - rewrite Hl by reflexivity. apply Rl. reflexivity.
    - rewrite Hl by reflexivity. apply Rl. reflexivity.
    - rewrite Ho. apply Ro, Forall2_map_r, IH.
    - rewrite Hi. apply Ri; assumption.
  Qed.

  Theorem pass_pred (P : tree -> Prop) :
    (forall n f cs, P (TOp n f cs) -> Forall P cs) ->
    (forall c t f, P (TIf c t f) <-> P c /\ P t /\ P f) ->
    (forall n f cs cs', P (TOp n f cs) -> Forall P cs' -> P (node n f cs')) ->
    forall t, P t -> P (p t).
  Proof.
    intros Po Pi Pn. apply (pass_rel (fun t t' => P t -> P t')).
    - auto.
    - intros n f cs cs' H Hn. apply (Pn n f cs cs' Hn). exact (Forall2_Forall (fun _ _ I => I) H (Po _ _ _ Hn)).
    - intros c t f c' t' f' Hc Ht Hf H. apply Pi in H. apply Pi. tauto.
  Qed.

  Lemma pass_can_be_last : (forall n f cs, can_be_last (node n f cs) = true) -> forall t, can_be_last (p t) = can_be_last t.
  Proof.
    destruct Hp as (Hl & Ho & Hi). intros Hn [v|n k|n f cs|c t f]; rewrite ?Ho, ?Hi, ?Hl by reflexivity; auto.
  Qed.
End Rel.

Definition nest_node (n : str) (f : bool) (cs : list tree) : tree :=
  if is_boolop n then match flatten (is_and n) cs with Some l => TOp n f l | None => TOp n f cs end else TOp n f cs.

Lemma cfold_pass custom cfg : is_pass (fun t => fst (cfold custom cfg t)) (fun n f cs => fst (fold_node custom cfg n f cs)).
Proof.
  repeat split; [intros [] H; try discriminate H; reflexivity|].
  intros n f cs. cbn [cfold fst]. rewrite map_map. reflexivity.
Qed.
Lemma nest_pass : is_pass nest nest_node.
Proof. repeat split. intros [] H; try discriminate H; reflexivity. Qed.
Lemma fastp_pass : is_pass fastp (fun n f cs => TOp n (f || fast_shape true cs) cs).
Proof. repeat split. intros [] H; try discriminate H; reflexivity. Qed.
Lemma reorder_pass sorter : is_pass (reorder_with sorter) (fun n f cs => TOp n f (if is_boolop n then sorter cs else cs)).
Proof. repeat split. intros [] H; try discriminate H; reflexivity. Qed.

Lemma boolop_kind n : is_boolop n = true -> op_kind n = Some (negb (is_and n)).
Proof. unfold op_kind, is_boolop. destruct (is_and n); [reflexivity|]. destruct (is_or n); [reflexivity|discriminate]. Qed.

(* leaves stay, an operand that is an and/or of the root's kind d is replaced by its own operands, anything else
   makes `flatten` give up *)
Lemma flatten_ind d (P : list tree -> list tree -> Prop) :
  P [] [] ->
  (forall c cs l, is_leaf c = true -> P cs l -> P (c :: cs) (c :: l)) ->
  (forall n f gcs cs l, op_kind n = Some d -> P cs l -> P (TOp n f gcs :: cs) (gcs ++ l)) ->
  forall cs l, flatten (negb d) cs = Some l -> P cs l.
Proof.
  intros Pn Pl Pg. induction cs as [|c cs IH]; intros l H; cbn [flatten] in H.
  - inversion H. exact Pn.
  - destruct c as [v|n k|n f gcs|c1 c2 c3]; [| |destruct (is_boolop n && Bool.eqb (is_and n) (negb d)) eqn:E|]; try discriminate H;
      destruct (flatten (negb d) cs) as [l'|]; try discriminate H; inversion H; subst l.
    + apply Pl; [reflexivity|]. apply IH. reflexivity.
    + apply Pl; [reflexivity|]. apply IH. reflexivity.
    + apply andb_prop in E. destruct E as [E1 E2]. apply Pg; [|apply IH; reflexivity].
      rewrite (boolop_kind n E1), (Bool.eqb_prop _ _ E2), Bool.negb_involutive. reflexivity.
Qed.

Lemma flatten_Forall d (P : tree -> Prop) :
  (forall n f gcs, op_kind n = Some d -> P (TOp n f gcs) -> Forall P gcs) ->
  forall cs l, flatten (negb d) cs = Some l -> Forall P cs -> Forall P l.
Proof.
  intros Pg. apply (flatten_ind d (fun cs l => Forall P cs -> Forall P l)); [auto| |].
  - intros c cs l _ IH H. inversion H; subst. constructor; auto.
  - intros n f gcs cs l Hk IH H. inversion H; subst. apply Forall_app. split; [apply (Pg n f gcs Hk)|apply IH]; assumption.
Qed.

Lemma nest_node_cases n f cs (P : tree -> Prop) :
  P (TOp n f cs) ->
  (forall d l, op_kind n = Some d -> flatten (negb d) cs = Some l -> P (TOp n f l)) ->
  P (nest_node n f cs).
Proof.
  intros Pk Pf. unfold nest_node. destruct (is_boolop n) eqn:Hb; [|exact Pk].
  destruct (flatten (is_and n) cs) as [l|] eqn:Ef; [|exact Pk].
  apply (Pf (negb (is_and n)) l (boolop_kind n Hb)). rewrite Bool.negb_involutive. exact Ef.
Qed.

Lemma optimize_passes custom cfg t : optimize custom cfg t =
  let t1 := if pass_on cfg "constant_folding" then fst (cfold custom cfg t) else t in
  let t2 := if pass_on cfg "reduce_nesting" then nest t1 else t1 in
  let t3 := if pass_on cfg "fast_evaluation" then fastp t2 else t2 in
  if pass_on cfg "reordering" then reorder cfg t3 else t3.
Proof. unfold optimize. rewrite pass_order. reflexivity. Qed.

Section Optimize.
  Variable custom : str -> list value -> res value.
  Variable cfg : config.
  Variable R : tree -> tree -> Prop.
  Hypothesis R_refl : forall t, R t t.
  Hypothesis R_trans : forall a b c, R a b -> R b c -> R a c.
  Hypothesis R_cfold : forall t, R t (fst (cfold custom cfg t)).
  Hypothesis R_nest : forall t, R t (nest t).
  Hypothesis R_fastp : forall t, R t (fastp t).
  Hypothesis R_reorder : forall t, R t (reorder cfg t).

  Lemma run_pass_rel name t : R t (run_pass custom cfg name t).
  Proof.
    unfold run_pass. destruct (String.eqb name "constant_folding"); [apply R_cfold|].
    destruct (String.eqb name "reduce_nesting"); [apply R_nest|].
    destruct (String.eqb name "fast_evaluation"); [apply R_fastp|].
    destruct (String.eqb name "reordering"); [apply R_reorder|apply R_refl].
  Qed.

  Theorem optimize_rel t : R t (optimize custom cfg t).
  Proof.
    unfold optimize. generalize optimizations_order as ps. intros ps. revert t.
    induction ps as [|n ps IH]; intros t; cbn [fold_left]; [apply R_refl|].
    eapply R_trans; [|apply IH]. destruct (pass_on cfg n); [apply run_pass_rel|apply R_refl].
  Qed.
End Optimize.

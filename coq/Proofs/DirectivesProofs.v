(* DirectivesProofs.v — directives are equivalent to setting the options programmatically (C02/C08). *)
Require Import Base Tables Ops Tree Opt Directives OpsList.
Open Scope Z_scope.
Open Scope list_scope.

Lemma switch_set opts name b n : switch (set_opt opts name b) n = if String.eqb n name then b else switch opts n.
Proof. unfold switch, set_opt. cbn [assoc_s]. destruct (String.eqb n name); reflexivity. Qed.

Theorem ordinary_comment opts cmt : strip_prefix (ss ";;;;") (trim cmt) = None -> apply_comment opts cmt = Some opts.
Proof. intros H. unfold apply_comment. rewrite H. reflexivity. Qed.

Lemma set_all_switch b n l : forall o, In n l \/ switch o n = b -> switch (fold_left (fun o m => set_opt o m b) l o) n = b.
Proof.
  induction l as [|m l IH]; intros o Hn; cbn [fold_left]; [destruct Hn as [[]|Hn]; exact Hn|].
  apply IH. rewrite switch_set. destruct Hn as [[->|Hn]|Hn]; [right; rewrite String.eqb_refl; reflexivity|left; exact Hn|].
  right. destruct (String.eqb n m); [reflexivity|exact Hn].
Qed.

(* `optimize : b` sets all four switches *)
Theorem optimize_sets_all opts b n : In n optimizations_order ->
  switch (fold_left (fun o m => set_opt o m b) optimizations_order opts) n = b.
Proof. intros H. apply set_all_switch. left. exact H. Qed.

Theorem item_sets opts k v b name : parse_bool (trim v) = Some b -> trim k = ss name -> In name optimizations_order ->
  str_eqb (ss name) (ss opt_all_switch) = false ->
  forall item, split 58 item = [k; v] ->
  exists opts', apply_item opts item = Some opts' /\ switch opts' (str_to_string (ss name)) = b /\
                (forall n, n <> str_to_string (ss name) -> switch opts' n = switch opts n).
Proof.
  intros Hb Hk Hin Hall item Hs. unfold apply_item. rewrite Hs, Hb, Hk, Hall.
  assert (E : existsb (fun n => str_eqb (ss name) (ss n)) optimizations_order = true)
    by (apply existsb_exists; exists name; split; [exact Hin|apply str_eqb_refl]).
  rewrite E. eexists. split; [reflexivity|]. split.
  - rewrite switch_set, String.eqb_refl. reflexivity.
  - intros n Hn. rewrite switch_set, (proj2 (String.eqb_neq _ _) Hn). reflexivity.
Qed.

Lemma option_names_roundtrip : forallb (fun n => String.eqb (str_to_string (ss n)) n) (opt_all_switch :: optimizations_order) = true.
Proof. vm_compute. reflexivity. Qed.

Lemma sort_by_ext key1 key2 : (forall t, key1 t = key2 t) -> forall l, sort_by key1 l = sort_by key2 l.
Proof.
  intros E. unfold sort_by. induction l as [|a l IHl]; cbn [fold_right]; [reflexivity|]. rewrite IHl.
  generalize (fold_right (insert_by key2) [] l). induction l0 as [|y l0 IH0]; cbn [insert_by]; [reflexivity|].
  rewrite !E, IH0. reflexivity.
Qed.

Lemma reorder_with_ext s1 s2 : (forall l, s1 l = s2 l) -> forall t, reorder_with s1 t = reorder_with s2 t.
Proof.
  intros E. induction t as [v|nm k|name fast cs IH|c a b IHc IHa IHb] using tree_ind2; try reflexivity; cbn [reorder_with].
  - rewrite (map_ext_Forall _ _ IH), E. reflexivity.
  - rewrite IHc, IHa, IHb. reflexivity.
Qed.

Section SameContents.
  Variable custom : str -> list value -> res value.
  Variables cfg1 cfg2 : config.
  Hypothesis Hs : stateless cfg1 = stateless cfg2.
  Hypothesis Hr : registered cfg1 = registered cfg2.
  Hypothesis Hc : costs cfg1 = costs cfg2.

  Lemma cfold_same t : cfold custom cfg1 t = cfold custom cfg2 t.
  Proof.
    assert (En : forall name fast cs, fold_node custom cfg1 name fast cs = fold_node custom cfg2 name fast cs)
      by (intros; unfold fold_node, stateless_fn; rewrite Hs, Hr; reflexivity).
    induction t as [v|nm k|name fast cs IH|c a b IHc IHa IHb] using tree_ind2; try reflexivity; cbn [cfold].
    - rewrite (map_ext_Forall _ _ IH), En. reflexivity.
    - rewrite IHc, IHa, IHb. reflexivity.
  Qed.

  Lemma cost_same t : cost cfg1 t = cost cfg2 t.
  Proof.
    assert (En : forall isv n, name_cost cfg1 isv n = name_cost cfg2 isv n) by (intros; unfold name_cost; rewrite Hc; reflexivity).
    induction t as [v|nm k|name fast cs IH|c a b IHc IHa IHb] using tree_ind2; cbn [cost]; try reflexivity.
    - rewrite En. reflexivity.
    - rewrite En, (map_ext_Forall _ _ IH). reflexivity.
    - rewrite IHc, IHa, IHb. reflexivity.
  Qed.

  Lemma run_pass_same n t : run_pass custom cfg1 n t = run_pass custom cfg2 n t.
  Proof.
    unfold run_pass, reorder. rewrite cfold_same, (reorder_with_ext _ _ (sort_by_ext _ _ cost_same)). reflexivity.
  Qed.
End SameContents.

(* compiling with directives IS compiling with the switches they denote: of the option list the optimiser reads the four
   switches only (and of the rest of a config the stateless list, the registrations and the costs) *)
Theorem optimize_depends_on_switches custom cfg1 cfg2 t :
  (forall n, In n optimizations_order -> pass_on cfg1 n = pass_on cfg2 n) ->
  stateless cfg1 = stateless cfg2 -> registered cfg1 = registered cfg2 -> costs cfg1 = costs cfg2 ->
  optimize custom cfg1 t = optimize custom cfg2 t.
Proof.
  intros Hsw Hs Hr Hc. unfold optimize. revert t Hsw. generalize optimizations_order as ps.
  induction ps as [|p ps IH]; intros t Hp; cbn [fold_left]; [reflexivity|].
  rewrite (Hp p (or_introl eq_refl)), (run_pass_same custom cfg1 cfg2 Hs Hr Hc). apply IH. intros n Hn. apply Hp. right. exact Hn.
Qed.

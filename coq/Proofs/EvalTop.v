(* EvalTop.v — the whole program in either mode (`progG ev t`: `compile t` or `compileE t`), the
   stack-allocation fact for it, and the top-level theorem: what is observed of eval (progG ev t) is sem t. *)
Require Import Base Tables Tree Flat FlatE Run SemFacts CompFacts CompG EvalDefs EvalCorrect.
From Coq Require Import ZifyBool.
Open Scope Z_scope.
Open Scope list_scope.

(* a node never writes a slot above its own position in the code (so `psize` slots always suffice) *)
Definition os_ok (code : list (node * Z)) (h : Z) : Prop :=
  forall k nd p, nth_error code k = Some (nd, p) -> osTop nd <= h + Z.of_nat k.

Lemma os_ok_nil h : os_ok [] h.
Proof. intros k nd p H. destruct k; discriminate. Qed.

Lemma os_ok_app a b h h' : os_ok a h -> os_ok b h' -> h' <= h + Z.of_nat (length a) -> os_ok (a ++ b) h.
Proof.
  intros Ha Hb Hh k nd p H. destruct (Nat.lt_ge_cases k (length a)) as [Hk|Hk].
  - rewrite nth_error_app1 in H by exact Hk. eapply Ha; eauto.
  - rewrite nth_error_app2 in H by exact Hk. apply Hb in H. lia.
Qed.

Lemma os_ok_one nd p h : osTop nd <= h -> os_ok [(nd, p)] h.
Proof. intros H k nd' p' Hk. destruct k as [|[|k]]; cbn in Hk; try discriminate. inversion Hk; subst. lia. Qed.

Lemma os_ok_weaken code h h' : os_ok code h -> h <= h' -> os_ok code h'.
Proof. intros H Hh k nd p Hk. apply H in Hk. lia. Qed.

Lemma os_ok_emit ev pos nd pidx h : osTop nd <= h -> os_ok (emit ev pos nd pidx) h.
Proof.
  unfold emit. destruct ev; [|apply os_ok_one].
  intros Hn k nd' p Hk. destruct k as [|[|k]]; cbn [nth_error with_event] in Hk;
    [inversion Hk; subst; cbn [osTop event_node]; lia|inversion Hk; subst; lia|destruct k; discriminate].
Qed.

Lemma compG_os_ok ev last t : forall base h inh anc mf mt pidx r, os_ok (compG ev last t base h inh anc mf mt pidx r) h.
Proof.
  induction t as [v|n k|name fast cs IH|c t f IHc IHt IHf] using tree_ind2; intros.
  - apply os_ok_emit. cbn. lia.
  - apply os_ok_emit. cbn. lia.
  - destruct (fast_shape fast cs) eqn:Hfs.
    + destruct (fast_shape_inv _ _ Hfs) as (a & b & -> & Ha & Hb & ->).
      rewrite compG_fast_unfold by exact Hfs. cbv zeta.
      apply (os_ok_app _ _ h h); [apply os_ok_emit; cbn; lia| |lia].
      intros k nd p Hk. destruct k as [|[|k]]; cbn [nth_error] in Hk; try (destruct k; discriminate); inversion Hk; subst; cbn [osTop mk]; lia.
    + rewrite compG_op_unfold by exact Hfs. clear Hfs.
      assert (E : forall kk n ridx anc' b hh, os_ok (compG_args ev last kk n ridx anc' cs b hh) hh).
      { intros kk n ridx anc'. induction IH as [|c0 cs0 Hc _ IHcs]; intros b hh; cbn [compG_args]; [apply os_ok_nil|].
        cbv zeta. apply (os_ok_app _ _ hh (hh + 1)); [apply Hc|apply IHcs|]. rewrite compG_length. pose proof (gsize_pos ev c0). lia. }
      eapply os_ok_app; [apply E|apply os_ok_emit; cbn; reflexivity|]. lia.
  - cbn [compG]. cbv zeta.
    apply (os_ok_app _ _ h h); [apply IHc| |lia].
    apply (os_ok_app _ _ h h); [apply os_ok_emit; cbn [osTop mk]; lia| |lia].
    apply (os_ok_app _ _ h h); [apply IHt| |lia].
    apply (os_ok_app _ _ h h); [apply os_ok_emit; cbn [osTop mk]; lia|apply IHf|lia].
Qed.

Lemma comp_os_ok last t base h inh anc mf mt pidx r : os_ok (comp last t base h inh anc mf mt pidx r) h.
Proof. rewrite <- compG_plain. apply compG_os_ok. Qed.

(* the slots a subtree's code writes do not depend on the mode, nor on anything but h: so the event-mode program
   fits the stack computed for the plain one *)
Definition osl (code : list (node * Z)) : list Z := map (fun x => osTop (fst x)) code.

Lemma osl_app a b : osl (a ++ b) = osl a ++ osl b.
Proof. apply map_app. Qed.

Lemma incl_app2 {A} (a b a' b' : list A) : incl a a' -> incl b b' -> incl (a ++ b) (a' ++ b').
Proof. intros Ha Hb. apply incl_app; [apply incl_appl|apply incl_appr]; assumption. Qed.

Lemma osl_emit ev ev' pos pos' nd nd' pidx pidx' : osTop nd = osTop nd' ->
  incl (osl (emit ev pos nd pidx)) (osl (emit ev' pos' nd' pidx')).
Proof.
  intros E x Hx. assert (x = osTop nd') as ->.
  { unfold emit in Hx. destruct ev; cbn in Hx; intuition congruence. }
  unfold emit. destruct ev'; cbn; auto.
Qed.

Lemma compG_osl ev ev' last last' t : forall base base' h inh inh' anc anc' mf mf' mt mt' pidx pidx' r r',
  incl (osl (compG ev last t base h inh anc mf mt pidx r)) (osl (compG ev' last' t base' h inh' anc' mf' mt' pidx' r')).
Proof.
  induction t as [v|n k|name fast cs IH|c t f IHc IHt IHf] using tree_ind2; intros.
  - apply osl_emit. reflexivity.
  - apply osl_emit. reflexivity.
  - destruct (fast_shape fast cs) eqn:Hfs.
    + destruct (fast_shape_inv _ _ Hfs) as (a & b & -> & Ha & Hb & ->).
      rewrite !compG_fast_unfold by exact Hfs. cbv zeta. rewrite !osl_app.
      apply incl_app2; [apply osl_emit; reflexivity|apply incl_refl].
    + rewrite !compG_op_unfold by exact Hfs. clear Hfs. rewrite !osl_app.
      apply incl_app2; [|apply osl_emit; reflexivity].
      generalize (base + Z.of_nat (gsize ev (TOp name fast cs)) - 1) (base' + Z.of_nat (gsize ev' (TOp name fast cs)) - 1)
                 (if inh then [] else (mf, mt) :: anc) (if inh' then [] else (mf', mt') :: anc').
      generalize (lenZ cs) at 1. generalize (lenZ cs).
      intros n2 n1 ridx ridx' an an'. revert base base' h.
      induction IH as [|c0 cs0 Hc _ IHcs]; intros b b' hh; cbn [compG_args]; [apply incl_refl|].
      cbv zeta. rewrite !osl_app. apply incl_app2; [apply Hc|apply IHcs].
  - cbn [compG]. cbv zeta. rewrite !osl_app.
    repeat apply incl_app2; try apply osl_emit; try reflexivity; [apply IHc|apply IHt|apply IHf].
Qed.

Lemma max_list_le l : forall d, d <= max_list l d.
Proof. unfold max_list. induction l as [|x l IH]; intros d; cbn [fold_left]; [lia|]. specialize (IH (Z.max d x)). lia. Qed.

Lemma max_list_ge l : forall d x, In x l -> x <= max_list l d.
Proof.
  unfold max_list. induction l as [|y l IH]; intros d x H; [destruct H|]. cbn [fold_left]. destruct H as [->|H].
  - pose proof (max_list_le l (Z.max d x)). unfold max_list in *. lia.
  - apply IH. exact H.
Qed.

Definition codeG (ev : bool) (t : tree) : list (node * Z) :=
  compG ev (Z.of_nat (gsize ev t) - 1) t 0 0 false [] fnone (groot ev t 0) (-1) None.

Definition progG (ev : bool) (t : tree) : prog :=
  {| nodes := map fst (codeG ev t); parents := map snd (codeG ev t); maxStack := maxStack (compile t) |}.

Lemma compile_progG t : compile t = progG false t.
Proof. unfold compile, progG, codeG. rewrite compG_plain, gsize_plain, groot_plain. reflexivity. Qed.

Lemma compileE_progG t : compileE t = progG true t.
Proof. unfold compileE, progG, codeG. rewrite compG_event, gsize_event, groot_event. reflexivity. Qed.

Lemma progG_len ev t : lenZ (nodes (progG ev t)) = Z.of_nat (gsize ev t).
Proof. unfold lenZ, progG, codeG. cbn [nodes]. rewrite map_length, compG_length. reflexivity. Qed.

Lemma compile_len t : lenZ (nodes (compile t)) = Z.of_nat (size t).
Proof. rewrite compile_progG, progG_len, gsize_plain. reflexivity. Qed.

(* the operand stack the evaluator allocates is large enough for every node's slot (C09, stack clause) *)
Lemma progG_alloc ev t : forall i nd, getn (progG ev t) i = Some nd -> osTop nd < alloc (progG ev t).
Proof.
  intros i nd G. pose proof (nthZ_range _ _ _ G) as R.
  unfold getn, nthZ in G. replace (i <? 0) with false in G by lia.
  cbn [nodes progG] in G. rewrite nth_error_map in G.
  destruct (nth_error (codeG ev t) (Z.to_nat i)) as [[nd' p]|] eqn:E; [|discriminate].
  cbn in G. inversion G; subst nd'. clear G.
  pose proof (compG_os_ok _ _ _ _ _ _ _ _ _ _ _ _ _ _ E) as Hos.
  assert (Hmax : osTop nd + 1 <= maxStack (progG ev t)).
  { assert (Hin : In (osTop nd) (osl (codeG false t))).
    { eapply compG_osl. unfold osl. apply in_map_iff. exists (nd, p). split; [reflexivity|]. eapply nth_error_In; eauto. }
    unfold osl in Hin. apply in_map_iff in Hin. destruct Hin as ([nd0 p0] & Eo & Hin0). cbn [fst] in Eo.
    unfold codeG in Hin0. rewrite compG_plain, gsize_plain, groot_plain in Hin0.
    cbn [maxStack progG compile]. apply max_list_ge. apply in_map_iff. exists (nd0, p0). split; [cbn [fst]; lia|exact Hin0]. }
  unfold alloc. destruct (maxStack (progG ev t) <=? stack_small) eqn:E8; [lia|].
  destruct (maxStack (progG ev t) <=? stack_mid) eqn:E16; [lia|].
  unfold psize. lia.
Qed.

Theorem compile_alloc t : forall i nd, getn (compile t) i = Some nd -> osTop nd < alloc (compile t).
Proof. rewrite compile_progG. apply progG_alloc. Qed.

Lemma progG_alloc_pos ev t : 1 <= alloc (progG ev t).
Proof.
  unfold alloc. destruct (_ <=? stack_small); [unfold stack_small; lia|].
  destruct (_ <=? stack_mid); [unfold stack_mid; lia|].
  unfold psize. rewrite progG_len. pose proof (gsize_pos ev t). lia.
Qed.

Definition sem_obs (x : list effect * res value) : list obs * mres :=
  (map e2o (fst x), match snd x with Ok v => MVal v | Err e => MErr e end).

Lemma sem_obs_value x v : snd (sem_obs x) = MVal v <-> snd x = Ok v.
Proof. unfold sem_obs. destruct x as [tr [w|e]]; cbn [snd]; split; intros H; inversion H; reflexivity. Qed.

Lemma bindT_ret x : bindT x (fun v => ([], MVal v)) = sem_obs x.
Proof.
  unfold sem_obs, bindT. destruct x as [tr [v|e]]; cbn [fst snd]; [|reflexivity].
  unfold preM. cbn [fst snd]. rewrite app_nil_r. reflexivity.
Qed.

(* the whole program: the code sits at index 0, nothing is flagged at the root, the result of the root is stored
   in slot 0 and the loop ends behind the last node. *)
Theorem run_progG_correct fetch custom ev R t : describes ev R ->
  R 0 (eval fetch custom (progG ev t)) (sem_obs (sem fetch custom t)).
Proof.
  intros HR. set (P := progG ev t).
  unfold eval. rewrite <- bindT_ret.
  apply (sub_ok fetch custom P ev R HR (progG_alloc ev t) t 0 0 false [] [] fnone (groot ev t 0) (-1) None 0
                (fun v => ([], MVal v)) []).
  - exists [], []. split; [|reflexivity]. rewrite app_nil_r. cbn [app].
    unfold lastI. unfold P. rewrite progG_len. reflexivity.
  - lia.
  - reflexivity.
  - intros b Hb. destruct b; discriminate.
  - exact I.
  - intros Hc. discriminate.
  - reflexivity.
  - intros v f Hf. rewrite Z.add_0_l.
    rewrite afterD_store
      by (pose proof (progG_alloc_pos ev t) as Ha; fold P in Ha; change (lenZ (@nil value)) with 0; lia).
    destruct f as [|f']; [destruct (need_pos _ _ Hf)|].
    rewrite run_end by (unfold P; rewrite progG_len; lia). apply (d_refl _ _ HR _ []).
  - unfold need, P. rewrite progG_len. unfold lenZ, progG. cbn [nodes]. rewrite map_length. unfold codeG. rewrite compG_length. lia.
Qed.

Theorem run_compile_correct fetch custom t :
  eval fetch custom (compile t) = sem_obs (sem fetch custom t).
Proof.
  rewrite compile_progG. apply (run_progG_correct fetch custom false _ t describes_eq).
Qed.

Corollary eval_value fetch custom t v : snd (eval fetch custom (compile t)) = MVal v <-> snd (sem fetch custom t) = Ok v.
Proof. rewrite run_compile_correct. apply sem_obs_value. Qed.

Print Assumptions run_compile_correct.

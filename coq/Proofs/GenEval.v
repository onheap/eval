(* GenEval.v — C20, the ordinary-evaluation half: when the generator cannot use a DNE variable (EnableTryEval off or no
   DNE variable given), strict evaluation of the generated expression — every operand of every operator, the taken
   branch of every `if` — succeeds with the reported result. Hence Eval returns the reported result, under every
   optimisation configuration. *)
Require Import Base Tree Opt TryFacts Gen GenProofs OptSound OptTotal.
Open Scope Z_scope.
Open Scope list_scope.

Section GE.
  Variable c : gencfg.
  Hypothesis WF : wf_cfg c.
  Hypothesis ND : g_try c && nonempty (g_dnes c) = false.

  Notation rok := (rok (gfetch c) no_custom).
  Notation apply_op := (apply_op no_custom).

  Definition typedE (isb : bool) (v : value) : Prop := if isb then exists b, v = VBool b else exists z, v = VInt z.
  Definition goodE (isb : bool) (tv : tree * value) : Prop := rok (fst tv) = Some (snd tv) /\ typedE isb (snd tv).

  Lemma goodE_children isb chs : Forall (goodE isb) chs ->
    all_some (map rok (map fst chs)) = Some (map snd chs) /\ Forall (typedE isb) (map snd chs).
  Proof.
    induction 1 as [|[t v] chs (Hk & Ht) _ (I1 & I2)]; cbn [map fst snd all_some] in *; [split; [reflexivity|constructor]|].
    rewrite Hk, I1. split; [reflexivity|constructor; assumption].
  Qed.

  (* the operands are definite, so the generator's own evaluation is the operator applied to them *)
  Lemma goodE_op isb op chs : In op node_ops ->
    Forall (goodE isb) chs ->
    (Forall (typedE isb) (map snd chs) -> exists v, apply_op op (map snd chs) = Ok v /\ typedE isb v) ->
    goodE isb (TOp op false (map fst chs), exec op (map snd chs)).
  Proof.
    intros Hop Hg Ha. destruct (goodE_children isb chs Hg) as (Hall & Hty). destruct (Ha Hty) as (v & Hv & Htv).
    rewrite (exec_is_comb _ _ _ Hop (comb_apply _ _ _ _ (definite_known _ _ Hty) Hv)). split; [|exact Htv].
    cbn [fst snd OptTotal.rok]. rewrite Hall, Hv. reflexivity.
  Qed.

  Theorem helper_goodE : forall fuel isb n s, (n < fuel)%nat -> goodE isb (fst (helper c fuel isb n s)).
  Proof.
    apply helper_ind.
    - intros isb tv [isb' name v Ht Hin|isb' name v Hin| | |z Hz].
      + rewrite Ht in ND. destruct (g_dnes c); [destruct Hin|discriminate].
      + destruct (pool_var c WF _ _ _ Hin) as [Hl Hd]. split; [|exact Hd].
        cbn [fst snd OptTotal.rok]. unfold gfetch. rewrite Hl. reflexivity.
      + split; [reflexivity|exists true; reflexivity].
      + split; [reflexivity|exists false; reflexivity].
      + split; [reflexivity|exists z; reflexivity].
    - intros t r G. apply (goodE_op true (ss "not") [(t, r)]); [exact not_node_op|constructor; [exact G|constructor]|].
      exact (not_strict r).
    - intros isb ct cr tt tr ft fr (K1 & b & Hb) (K2 & T2) (K3 & T3). cbn [fst snd] in *. subst cr.
      split; cbn [fst snd OptTotal.rok]; [rewrite K1|]; destruct b; assumption.
    - intros isb r chs Hg Hl. apply goodE_op; [apply pick_nine|exact Hg|].
      intros Hd. apply pick_strict; [exact Hd|rewrite map_length; exact Hl].
  Qed.

  Theorem generate_rok isb level s :
    let r := generate c isb level s in rok (fst r) = Some (snd r) /\ typedE isb (snd r).
  Proof. unfold generate. apply helper_goodE. lia. Qed.

  Corollary generate_sem cfg isb level s :
    let r := generate c isb level s in
    snd (sem (gfetch c) no_custom (optimize no_custom cfg (fst r))) = Ok (snd r).
  Proof.
    cbv zeta. destruct (generate_rok isb level s) as [H _].
    exact (all_configurations_return (gfetch c) no_custom cfg _ _ H).
  Qed.
  Corollary generate_sem_plain isb level s :
    let r := generate c isb level s in snd (sem (gfetch c) no_custom (fst r)) = Ok (snd r).
  Proof. cbv zeta. destruct (generate_rok isb level s) as [H _]. exact (rok_val (gfetch c) no_custom _ _ H). Qed.
End GE.

Print Assumptions generate_sem.

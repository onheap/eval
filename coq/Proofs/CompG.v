(* CompG.v — `comp` (Flat.v) and `compE` (FlatE.v) are one recursion with a switch: in event mode every node
   except the leaf operands of a fast operator is preceded by its event node, and indices shift accordingly.
   `compG ev` is that recursion; it is proved equal to `comp` and `compE`, and the structural facts every
   machine-level proof needs (lengths, where the nodes of a subtree sit, which slots they write) are proved
   once, for both modes. *)
Require Import Base Tree Flat FlatE ListFacts CompFacts SemFacts.
From Coq Require Import Lia.
Open Scope Z_scope.
Open Scope list_scope.

Section G.
  Variable ev : bool.

  (* number of event nodes in front of a real node: every index shift below is a multiple of it *)
  Definition en : nat := if ev then 1 else 0.
  Definition ez : Z := Z.of_nat en.

  Lemma ez_range : 0 <= ez <= 1.
  Proof. unfold ez, en. destruct ev; cbn; lia. Qed.

  Definition emit (pos : Z) (nd : node) (pidx : Z) : list (node * Z) :=
    if ev then with_event pos nd pidx else [(nd, pidx)].

  Fixpoint gsize (t : tree) : nat :=
    match t with
    | TConst _ | TVar _ _ => S en
    | TOp _ fast cs => if fast_shape fast cs then 3 + en else S (en + fold_right (fun c a => (gsize c + a)%nat) 0%nat cs)
    | TIf c t f => (gsize c + gsize t + gsize f + 2 + 2 * en)%nat
    end.
  Definition gsizes (cs : list tree) : nat := fold_right (fun c a => (gsize c + a)%nat) 0%nat cs.

  Definition groot (t : tree) (base : Z) : Z :=
    match t with
    | TConst _ | TVar _ _ => base + ez
    | TOp _ fast cs => if fast_shape fast cs then base + ez else base + Z.of_nat (gsize t) - 1
    | TIf c _ _ => base + Z.of_nat (gsize c) + ez
    end.

  Section L.
    Variable last : Z.

    Fixpoint compG (t : tree) (base h : Z) (inh : bool) (anc : list (flags * Z)) (mf : flags) (mt : Z)
                   (pidx : Z) (r : rco) : list (node * Z) :=
      match t with
      | TConst v => emit (base + ez) (mk last (KConst v) 0 mf mt h r) pidx
      | TVar n k => emit (base + ez) (mk last (KVar n k) 0 mf mt h r) pidx
      | TOp name fast cs =>
        match fast_shape fast cs, cs with
        | true, [a; b] =>
          let k := op_kind name in
          let fl := child_flags k false in
          let i := base + ez in
          emit i (mk last (KFast name) 2 mf mt h r) pidx ++
          [ (mk last (leaf_kind a) 0 fl (if fany fl then i else i + 1) h k, i);
            (mk last (leaf_kind b) 0 fl (if fany fl then i else i + 2) h k, i) ]
        | _, _ =>
          let ridx := base + Z.of_nat (gsize t) - 1 in
          let anc' := if inh then [] else (mf, mt) :: anc in
          let k := op_kind name in
          let n := lenZ cs in
          (fix go (cs : list tree) (b hh : Z) : list (node * Z) :=
             match cs with
             | [] => []
             | c :: cs' =>
               let lastc := match cs' with [] => can_be_last c && (2 <=? n) | _ => false end in
               let fl := child_flags k lastc in
               let tg := if fany fl then climb fl anc' ridx else groot c b in
               compG c b hh false anc' fl tg ridx k ++ go cs' (b + Z.of_nat (gsize c)) (hh + 1)
             end) cs base h
          ++ emit ridx (mk last (KOp name) n mf mt h r) pidx
        end
      | TIf c t f =>
        let ifidx := base + Z.of_nat (gsize c) + ez in
        let tb := ifidx + 1 in
        let fiidx := tb + Z.of_nat (gsize t) + ez in
        let fb := fiidx + 1 in
        let endidx := fb + Z.of_nat (gsize f) - 1 in
        let inherit := negb (mt =? ifidx) in
        compG c base h false [] fnone (groot c base) ifidx None
        ++ emit ifidx (mk last KIf 4 mf fiidx (h - 1) r) pidx
        ++ compG t tb h true [] (if inherit then mf else fnone) (if inherit then mt else groot t tb) ifidx r
        ++ emit fiidx (mk last KFi 0 (if inherit then mf else fnone) endidx h r) ifidx
        ++ compG f fb h true [] (if inherit then mf else fnone) (if inherit then mt else groot f fb) ifidx r
      end.

    Fixpoint compG_args (k : option bool) (n : Z) (ridx : Z) (anc' : list (flags * Z)) (cs : list tree) (b hh : Z)
      : list (node * Z) :=
      match cs with
      | [] => []
      | c :: cs' =>
        let lastc := match cs' with [] => can_be_last c && (2 <=? n) | _ => false end in
        let fl := child_flags k lastc in
        let tg := if fany fl then climb fl anc' ridx else groot c b in
        compG c b hh false anc' fl tg ridx k ++ compG_args k n ridx anc' cs' (b + Z.of_nat (gsize c)) (hh + 1)
      end.

    Lemma compG_op_unfold name fast cs base h inh anc mf mt pidx r :
      fast_shape fast cs = false ->
      compG (TOp name fast cs) base h inh anc mf mt pidx r =
        compG_args (op_kind name) (lenZ cs) (base + Z.of_nat (gsize (TOp name fast cs)) - 1)
                   (if inh then [] else (mf, mt) :: anc) cs base h
        ++ emit (base + Z.of_nat (gsize (TOp name fast cs)) - 1) (mk last (KOp name) (lenZ cs) mf mt h r) pidx.
    Proof.
      intros Hf. cbn [compG]. rewrite Hf. f_equal.
      generalize (base + Z.of_nat (gsize (TOp name fast cs)) - 1) as ridx.
      generalize (if inh then [] else (mf, mt) :: anc) as anc'.
      generalize (lenZ cs) as n. intros n anc' ridx. clear Hf. revert base h.
      induction cs as [|c cs IH]; intros b hh; cbn [compG_args]; cbv zeta; [reflexivity|].
      f_equal. apply IH.
    Qed.

    Lemma compG_fast_unfold name fast a b base h inh anc mf mt pidx r :
      fast_shape fast [a; b] = true ->
      compG (TOp name fast [a; b]) base h inh anc mf mt pidx r =
        let k := op_kind name in
        let fl := child_flags k false in
        let i := base + ez in
        emit i (mk last (KFast name) 2 mf mt h r) pidx ++
        [ (mk last (leaf_kind a) 0 fl (if fany fl then i else i + 1) h k, i);
          (mk last (leaf_kind b) 0 fl (if fany fl then i else i + 2) h k, i) ].
    Proof. intros Hf. cbn [compG]. rewrite Hf. reflexivity. Qed.

    Lemma gsize_op name fast cs : fast_shape fast cs = false -> gsize (TOp name fast cs) = S (en + gsizes cs).
    Proof. intros H. cbn [gsize]. rewrite H. reflexivity. Qed.
    Lemma gsize_fast name fast cs : fast_shape fast cs = true -> gsize (TOp name fast cs) = (3 + en)%nat.
    Proof. intros H. cbn [gsize]. rewrite H. reflexivity. Qed.

    Lemma gsize_pos t : (S en <= gsize t)%nat.
    Proof. destruct t; cbn [gsize]; try lia. destruct (fast_shape fast cs); lia. Qed.

    Lemma emit_length pos nd pidx : length (emit pos nd pidx) = S en.
    Proof. unfold emit, en. destruct ev; reflexivity. Qed.

    Lemma compG_args_length_of cs :
      Forall (fun c => forall base h inh anc mf mt pidx r, length (compG c base h inh anc mf mt pidx r) = gsize c) cs ->
      forall k n ridx anc' b hh, length (compG_args k n ridx anc' cs b hh) = gsizes cs.
    Proof.
      intros H k n ridx anc'. induction H as [|c cs0 Hc _ IHcs]; intros b hh; cbn [compG_args gsizes fold_right]; [reflexivity|].
      rewrite app_length, Hc. fold (gsizes cs0). rewrite IHcs. reflexivity.
    Qed.

    Lemma compG_length t : forall base h inh anc mf mt pidx r,
      length (compG t base h inh anc mf mt pidx r) = gsize t.
    Proof.
      induction t as [v|n k|name fast cs IH|c t f IHc IHt IHf] using tree_ind2; intros.
      - apply emit_length.
      - apply emit_length.
      - destruct (fast_shape fast cs) eqn:Hf.
        + destruct (fast_shape_inv _ _ Hf) as (a & b & -> & Ha & Hb & ->).
          rewrite compG_fast_unfold, gsize_fast by exact Hf. cbv zeta. rewrite app_length, emit_length. cbn [length]. lia.
        + rewrite compG_op_unfold, gsize_op by exact Hf. rewrite app_length, emit_length, (compG_args_length_of cs IH). lia.
      - cbn [compG]. rewrite !app_length, !emit_length, IHc, IHt, IHf. cbn [gsize]. lia.
    Qed.

    Lemma compG_args_length k n ridx anc' cs b hh : length (compG_args k n ridx anc' cs b hh) = gsizes cs.
    Proof. apply compG_args_length_of, Forall_forall. intros c _. apply compG_length. Qed.

    Lemma emit_placed (P : list node) base pos nd pidx rest :
      placed P base (map fst (emit pos nd pidx ++ rest)) ->
      (ev = true -> nthZ P base = Some (event_node pos nd)) /\ nthZ P (base + ez) = Some nd /\
      placed P (base + ez + 1) (map fst rest).
    Proof.
      unfold emit, ez, en. destruct ev; cbn [with_event app map fst]; intros H.
      - apply placed_cons in H. destruct H as [G0 H]. apply placed_cons in H. destruct H as [G1 H]. auto.
      - apply placed_cons in H. destruct H as [G0 H]. rewrite Z.add_0_r. split; [discriminate|auto].
    Qed.

    Lemma emit_placed_snd (Q : list Z) base pos nd pidx rest :
      sub_at Q base (map snd (emit pos nd pidx ++ rest)) ->
      nthZ Q (base + ez) = Some pidx /\ sub_at Q (base + ez + 1) (map snd rest).
    Proof.
      unfold emit, ez, en. destruct ev; cbn [with_event app map snd]; intros H.
      - apply placed_cons in H. destruct H as [_ H]. apply placed_cons in H. exact H.
      - apply placed_cons in H. rewrite Z.add_0_r. exact H.
    Qed.

    (* the first and the last node of a subtree's code write (or announce) the subtree's own slot *)
    Lemma emit_first_os pos nd pidx rest : exists nd' p rest', emit pos nd pidx ++ rest = (nd', p) :: rest' /\ osTop nd' = osTop nd.
    Proof. unfold emit. destruct ev; eexists _, _, _; split; reflexivity. Qed.

    Lemma compG_first_os t : forall base h inh anc mf mt pidx r,
      exists nd p rest, compG t base h inh anc mf mt pidx r = (nd, p) :: rest /\ osTop nd = h.
    Proof.
      assert (E1 : forall pos nd pidx, exists nd' p rest', emit pos nd pidx = (nd', p) :: rest' /\ osTop nd' = osTop nd).
      { intros. rewrite <- (app_nil_r (emit _ _ _)). apply emit_first_os. }
      induction t as [v|n k|name fast cs IH|c t f IHc IHt IHf] using tree_ind2; intros.
      - apply E1.
      - apply E1.
      - destruct (fast_shape fast cs) eqn:Hf.
        + destruct (fast_shape_inv _ _ Hf) as (a & b & -> & Ha & Hb & ->).
          rewrite compG_fast_unfold by exact Hf. apply emit_first_os.
        + rewrite compG_op_unfold by exact Hf. destruct cs as [|c cs].
          * apply E1.
          * cbn [compG_args]. cbv zeta. inversion IH as [|? ? Hc _]; subst.
            match goal with |- context [compG c ?b ?hh ?i ?an ?f ?tg ?pp ?rr] => destruct (Hc b hh i an f tg pp rr) as (nd & p & rest & E & Ho) end.
            rewrite E. cbn [app]. eexists _, _, _. split; [reflexivity|exact Ho].
      - cbn [compG]. cbv zeta.
        match goal with |- context [compG c ?b ?hh ?i ?an ?f0 ?tg ?pp ?rr] => destruct (IHc b hh i an f0 tg pp rr) as (nd & p & rest & E & Ho) end.
        rewrite E. cbn [app]. eexists _, _, _. split; [reflexivity|exact Ho].
    Qed.

    Lemma emit_last pos nd pidx : exists front, emit pos nd pidx = front ++ [(nd, pidx)].
    Proof. unfold emit. destruct ev; [exists [(event_node pos nd, evp pidx)]|exists []]; reflexivity. Qed.

    Lemma compG_last_os t : forall base h inh anc mf mt pidx r,
      exists front nd p, compG t base h inh anc mf mt pidx r = front ++ [(nd, p)] /\ osTop nd = h.
    Proof.
      induction t as [v|n k|name fast cs IH|c t f IHc IHt IHf] using tree_ind2; intros.
      - cbn [compG]. destruct (emit_last (base + ez) (mk last (KConst v) 0 mf mt h r) pidx) as [fr ->]. eexists _, _, _. split; reflexivity.
      - cbn [compG]. destruct (emit_last (base + ez) (mk last (KVar n k) 0 mf mt h r) pidx) as [fr ->]. eexists _, _, _. split; reflexivity.
      - destruct (fast_shape fast cs) eqn:Hf.
        + destruct (fast_shape_inv _ _ Hf) as (a & b & -> & Ha & Hb & ->).
          rewrite compG_fast_unfold by exact Hf. cbv zeta. eexists (_ ++ [_]), _, _. rewrite <- app_assoc. split; reflexivity.
        + rewrite compG_op_unfold by exact Hf.
          match goal with |- context [emit ?p ?nd ?q] => destruct (emit_last p nd q) as [fr ->] end.
          eexists _, _, _. rewrite app_assoc. split; reflexivity.
      - cbn [compG]. cbv zeta.
        match goal with |- context [compG f ?b ?hh ?i ?an ?f0 ?tg ?pp ?rr] => destruct (IHf b hh i an f0 tg pp rr) as (front & nd & p & E & Ho) end.
        rewrite E. eexists _, nd, p. split; [|exact Ho]. rewrite !app_assoc. reflexivity.
    Qed.

    Lemma lenZ_emit pos nd pidx : lenZ (emit pos nd pidx) = ez + 1.
    Proof. unfold lenZ, ez. rewrite emit_length. lia. Qed.
    Lemma lenZ_compG t base h inh anc mf mt pidx r : lenZ (compG t base h inh anc mf mt pidx r) = Z.of_nat (gsize t).
    Proof. unfold lenZ. rewrite compG_length. reflexivity. Qed.
    Lemma lenZ_compG_args k n ridx anc' cs b hh : lenZ (compG_args k n ridx anc' cs b hh) = Z.of_nat (gsizes cs).
    Proof. unfold lenZ. rewrite compG_args_length. reflexivity. Qed.

    Lemma op_root name fast cs base : fast_shape fast cs = false ->
      base + Z.of_nat (gsize (TOp name fast cs)) - 1 = base + Z.of_nat (gsizes cs) + ez.
    Proof. intros H. rewrite gsize_op by exact H. unfold ez. lia. Qed.

    Lemma emit_at (P : list node) base pos nd pidx : placed P base (map fst (emit pos nd pidx)) -> nthZ P (base + ez) = Some nd.
    Proof. intros H. rewrite <- (app_nil_r (emit _ _ _)) in H. apply emit_placed in H. apply H. Qed.
  End L.
End G.

Lemma gsize_plain t : gsize false t = size t.
Proof.
  induction t as [v|n k|name fast cs IH|c t f IHc IHt IHf] using tree_ind2; cbn [gsize size en]; try reflexivity.
  - rewrite (sum_ext_Forall _ _ _ IH). fold (sizes cs). destruct (fast_shape fast cs) eqn:Hf; [|reflexivity].
    destruct (fast_shape_inv _ _ Hf) as (a & b & -> & Ha & Hb & _). cbn [sizes fold_right].
    rewrite (leaf_size a Ha), (leaf_size b Hb). reflexivity.
  - rewrite IHc, IHt, IHf. lia.
Qed.

Lemma gsize_event t : gsize true t = esize t.
Proof.
  induction t as [v|n k|name fast cs IH|c t f IHc IHt IHf] using tree_ind2; cbn [gsize esize en]; try reflexivity.
  - rewrite (sum_ext_Forall _ _ _ IH). fold (esizes cs). destruct (fast_shape fast cs); reflexivity.
  - rewrite IHc, IHt, IHf. lia.
Qed.

Lemma groot_plain t base : groot false t base = root_idx t base.
Proof.
  destruct t as [v|n k|name fast cs|c t f]; unfold groot, root_idx; rewrite ?gsize_plain; change (ez false) with 0; rewrite ?Z.add_0_r; reflexivity.
Qed.

Lemma groot_event t base : groot true t base = root_idxE t base.
Proof. destruct t as [v|n k|name fast cs|c t f]; unfold groot, root_idxE; rewrite ?gsize_event; reflexivity. Qed.

Lemma compG_plain last t : forall base h inh anc mf mt pidx r,
  compG false last t base h inh anc mf mt pidx r = comp last t base h inh anc mf mt pidx r.
Proof.
  induction t as [v|n k|name fast cs IH|c t f IHc IHt IHf] using tree_ind2; intros.
  - reflexivity.
  - reflexivity.
  - destruct (fast_shape fast cs) eqn:Hf.
    + destruct (fast_shape_inv _ _ Hf) as (a & b & -> & Ha & Hb & ->).
      rewrite compG_fast_unfold, comp_fast_unfold by exact Hf. cbv zeta. change (ez false) with 0. rewrite Z.add_0_r. reflexivity.
    + rewrite compG_op_unfold, comp_op_unfold by exact Hf. rewrite gsize_plain. f_equal. clear Hf.
      generalize (op_kind name) (lenZ cs) (base + Z.of_nat (size (TOp name fast cs)) - 1) (if inh then [] else (mf, mt) :: anc).
      intros k n ridx anc'. revert base h. induction IH as [|c cs Hc _ IHcs]; intros b hh; cbn [compG_args comp_args]; [reflexivity|].
      cbv zeta. rewrite Hc, groot_plain, gsize_plain, IHcs. reflexivity.
  - cbn [compG comp]. cbv zeta. change (ez false) with 0. rewrite !gsize_plain, !groot_plain, !Z.add_0_r, IHc, IHt, IHf. reflexivity.
Qed.

Lemma compE_op_unfold last name fast cs base h inh anc mf mt pidx r :
  fast_shape fast cs = false ->
  compE last (TOp name fast cs) base h inh anc mf mt pidx r =
    compE_args last (op_kind name) (lenZ cs) (base + Z.of_nat (esize (TOp name fast cs)) - 1)
               (if inh then [] else (mf, mt) :: anc) cs base h
    ++ with_event (base + Z.of_nat (esize (TOp name fast cs)) - 1) (mk last (KOp name) (lenZ cs) mf mt h r) pidx.
Proof.
  intros Hf. cbn [compE]. rewrite Hf. f_equal.
  generalize (base + Z.of_nat (esize (TOp name fast cs)) - 1) as ridx.
  generalize (if inh then [] else (mf, mt) :: anc) as anc'.
  generalize (lenZ cs) as n. intros n anc' ridx. clear Hf. revert base h.
  induction cs as [|c cs IH]; intros b hh; cbn [compE_args]; cbv zeta; [reflexivity|].
  f_equal. apply IH.
Qed.

Lemma compG_event last t : forall base h inh anc mf mt pidx r,
  compG true last t base h inh anc mf mt pidx r = compE last t base h inh anc mf mt pidx r.
Proof.
  induction t as [v|n k|name fast cs IH|c t f IHc IHt IHf] using tree_ind2; intros.
  - reflexivity.
  - reflexivity.
  - destruct (fast_shape fast cs) eqn:Hf.
    + destruct (fast_shape_inv _ _ Hf) as (a & b & -> & Ha & Hb & ->).
      cbn [compG compE]. rewrite Hf. cbv zeta. change (ez true) with 1. replace (base + 1 + 1) with (base + 2) by lia.
      replace (base + 1 + 2) with (base + 3) by lia. reflexivity.
    + rewrite compG_op_unfold, compE_op_unfold by exact Hf. rewrite gsize_event. f_equal. clear Hf.
      generalize (op_kind name) (lenZ cs) (base + Z.of_nat (esize (TOp name fast cs)) - 1) (if inh then [] else (mf, mt) :: anc).
      intros k n ridx anc'. revert base h. induction IH as [|c cs Hc _ IHcs]; intros b hh; cbn [compG_args compE_args]; [reflexivity|].
      cbv zeta. rewrite Hc, groot_event, gsize_event, IHcs. reflexivity.
  - cbn [compG compE]. cbv zeta. change (ez true) with 1. rewrite !gsize_event, !groot_event, IHc, IHt, IHf. reflexivity.
Qed.

Lemma comp_length last t base h inh anc mf mt pidx r : length (comp last t base h inh anc mf mt pidx r) = size t.
Proof. rewrite <- compG_plain, compG_length. apply gsize_plain. Qed.

Lemma compG_leaf ev last t base h inh anc mf mt pidx r : is_leaf t = true ->
  compG ev last t base h inh anc mf mt pidx r = emit ev (base + ez ev) (mk last (leaf_kind t) 0 mf mt h r) pidx.
Proof. destruct t; try discriminate; reflexivity. Qed.

Lemma gsize_leaf ev t : is_leaf t = true -> gsize ev t = S (en ev).
Proof. destruct t; try discriminate; reflexivity. Qed.

Lemma compG_first_placed ev last (P : list node) t base h inh anc mf mt pidx r :
  placed P base (map fst (compG ev last t base h inh anc mf mt pidx r)) ->
  exists nd, nthZ P base = Some nd /\ osTop nd = h.
Proof.
  intros Hp. destruct (compG_first_os ev last t base h inh anc mf mt pidx r) as (nd & p & rest & E & Ho).
  rewrite E in Hp. apply placed_cons in Hp. exists nd. split; [apply Hp|exact Ho].
Qed.

Lemma compG_last_placed ev last (P : list node) t base h inh anc mf mt pidx r :
  placed P base (map fst (compG ev last t base h inh anc mf mt pidx r)) ->
  exists nd, nthZ P (base + Z.of_nat (gsize ev t) - 1) = Some nd /\ osTop nd = h.
Proof.
  intros Hp. destruct (compG_last_os ev last t base h inh anc mf mt pidx r) as (front & nd & p & E & Ho).
  pose proof (compG_length ev last t base h inh anc mf mt pidx r) as Lf. rewrite E in Hp, Lf.
  rewrite map_app in Hp. apply placed_app in Hp. destruct Hp as [_ Hp]. apply placed_cons in Hp. destruct Hp as [G _].
  exists nd. split; [|exact Ho]. rewrite app_length in Lf. cbn [length] in Lf. unfold lenZ in G. rewrite map_length in G.
  replace (base + Z.of_nat (gsize ev t) - 1) with (base + Z.of_nat (length front)) by lia. exact G.
Qed.

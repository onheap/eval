(* GenProofs.v — C20: the result GenerateRandomExpr reports is the three-valued (Kleene) value of the expression it
   generates, no sub-expression of which fails. Every invariant of generated pairs comes from one induction principle
   over the generator's recursion, `helper_ind`. *)
Require Import Base Opcode Ops Tree OpsArith OpsList SemFacts TryFacts Gen.
Open Scope Z_scope.
Open Scope list_scope.

Lemma draw_fst s n : 0 < n -> 0 <= fst (draw s n) < n.
Proof. intros H. unfold draw. destruct s; cbn [fst]; [lia|]. apply Z.mod_pos_bound. exact H. Qed.

Lemma draw_level s n : (0 < n)%nat -> (Z.to_nat (fst (draw s (Z.of_nat n))) < n)%nat.
Proof. intros H. pose proof (draw_fst s (Z.of_nat n)). lia. Qed.

Lemma nth_Z {A} (l : list A) i : 0 <= i < lenZ l -> exists x, nth_error l (Z.to_nat i) = Some x /\ In x l.
Proof.
  intros H. destruct (nth_error l (Z.to_nat i)) as [x|] eqn:E.
  - exists x. split; [reflexivity|exact (nth_error_In _ _ E)].
  - apply nth_error_None in E. unfold lenZ in H. lia.
Qed.

Lemma nth_name_in l i : 0 <= i < lenZ l -> In (nth_name l i) (map ss l).
Proof. intros H. destruct (nth_Z l i H) as (x & E & Hx). unfold nth_name. rewrite E. apply in_map, Hx. Qed.

Lemma children_all (P : tree * value -> Prop) h n :
  (forall s, P (fst (h (Z.to_nat (fst (draw s (Z.of_nat n)))) (snd (draw s (Z.of_nat n)))))) ->
  forall k s, Forall P (fst (children h n k s)) /\ length (fst (children h n k s)) = k.
Proof.
  intros Hh. induction k as [|k IH]; intros s; cbn [children]; [split; [constructor|reflexivity]|].
  specialize (Hh s). destruct (draw s (Z.of_nat n)) as [kk s0]. cbn [fst snd] in Hh.
  destruct (h (Z.to_nat kk) s0) as [tv s1]. specialize (IH s1). destruct (children h n k s1) as [rest s2].
  cbn [fst length] in *. destruct IH as [I1 I2]. split; [constructor; assumption|rewrite I2; reflexivity].
Qed.

Section Gen.
  Variable c : gencfg.

  Inductive leaf_of : bool -> tree * value -> Prop :=
  | leaf_dne isb name v : g_try c = true -> In (name, v) (g_dnes c) -> leaf_of isb (TVar name 0, v)
  | leaf_var (isb : bool) name v : In (name, v) (if isb then g_bools c else g_nums c) -> leaf_of isb (TVar name 0, v)
  | leaf_true : leaf_of true (TOp (ss "=") false [TConst (VInt 0); TConst (VInt 0)], VBool true)
  | leaf_false : leaf_of true (TOp (ss "!=") false [TConst (VInt 0); TConst (VInt 0)], VBool false)
  | leaf_int z : -50 <= z < 50 -> leaf_of false (TConst (VInt z), VInt z).

  Lemma var_leaf_in l v : nonempty l = true -> exists name res, In (name, res) l /\ var_leaf l v = (TVar name 0, res).
  Proof.
    intros Hne. assert (Hl : 0 < lenZ l) by (destruct l; [discriminate|unfold lenZ; cbn [length]; lia]).
    destruct (nth_Z l (v mod lenZ l) (Z.mod_pos_bound _ _ Hl)) as ([name res] & E & Hin).
    exists name, res. unfold var_leaf. rewrite E. split; [exact Hin|reflexivity].
  Qed.

  Lemma leaf_spec isb r v : 0 <= v < 100 -> leaf_of isb (leaf c isb r v).
  Proof.
    intros Hv. unfold leaf. destruct ((r =? 1) && g_try c && nonempty (g_dnes c)) eqn:E1.
    { apply andb_prop in E1. destruct E1 as [E1 Hne]. apply andb_prop in E1. destruct E1 as [_ Ht].
      destruct (var_leaf_in _ v Hne) as (name & res & Hin & ->). apply leaf_dne; assumption. }
    destruct isb.
    - destruct ((r <? 4) && g_var c && nonempty (g_bools c)) eqn:E2.
      + apply andb_prop in E2. destruct E2 as [_ Hne].
        destruct (var_leaf_in _ v Hne) as (name & res & Hin & ->). apply (leaf_var true). exact Hin.
      + destruct (v <? 50); constructor.
    - destruct ((r <? 4) && g_var c && nonempty (g_nums c)) eqn:E2.
      + apply andb_prop in E2. destruct E2 as [_ Hne].
        destruct (var_leaf_in _ v Hne) as (name & res & Hin & ->). apply (leaf_var false). exact Hin.
      + apply leaf_int. clear - Hv. lia.
  Qed.

  Variable P : bool -> tree * value -> Prop.
  Hypothesis Pleaf : forall isb tv, leaf_of isb tv -> P isb tv.
  Hypothesis Pnot : forall t r, P true (t, r) -> P true (TOp (ss "not") false [t], exec (ss "not") [r]).
  Hypothesis Pif : forall isb ct cr tt tr ft fr, P true (ct, cr) -> P isb (tt, tr) -> P isb (ft, fr) ->
    P isb (TIf ct tt ft, match cr with VBool true => tr | VBool false => fr | VDNE => VDNE | _ => VNil end).
  Hypothesis Pop : forall isb r chs, Forall (P isb) chs -> (2 <= length chs)%nat ->
    P isb (TOp (pick_op isb r (map snd chs)) false (map fst chs), exec (pick_op isb r (map snd chs)) (map snd chs)).

  Theorem helper_ind : forall fuel isb n s, (n < fuel)%nat -> P isb (fst (helper c fuel isb n s)).
  Proof.
    induction fuel as [|f IH]; intros isb n s Hn; [inversion Hn|]. cbn [helper].
    destruct (draw s 10) as [r s0]. destruct n as [|n'].
    { pose proof (draw_fst s0 100 eq_refl) as B. destruct (draw s0 100) as [v s1]. apply Pleaf, leaf_spec, B. }
    assert (Hch : forall b s', P b (fst (helper c f b (Z.to_nat (fst (draw s' (Z.of_nat (S n'))))) (snd (draw s' (Z.of_nat (S n'))))))).
    { intros b s'. apply IH. pose proof (draw_level s' (S n') (Nat.lt_0_succ n')). lia. }
    destruct (isb && (r <? 3)) eqn:Enot.
    - apply andb_prop in Enot. destruct Enot as [-> _]. assert (G : P true (fst (helper c f true n' s0))) by (apply IH; lia).
      destruct (helper c f true n' s0) as [[t res] s1]. apply Pnot, G.
    - destruct (g_cond c && (r =? 3)).
      + pose proof (Hch true s0) as G1. destruct (draw s0 (Z.of_nat (S n'))) as [k1 s1]. cbn [fst snd] in G1.
        destruct (helper c f true (Z.to_nat k1) s1) as [[ct cr] s2].
        pose proof (Hch isb s2) as G2. destruct (draw s2 (Z.of_nat (S n'))) as [k2 s3]. cbn [fst snd] in G2.
        destruct (helper c f isb (Z.to_nat k2) s3) as [[tt tr] s4].
        pose proof (Hch isb s4) as G3. destruct (draw s4 (Z.of_nat (S n'))) as [k3 s5]. cbn [fst snd] in G3.
        destruct (helper c f isb (Z.to_nat k3) s5) as [[ft fr] s6].
        apply Pif; assumption.
      + pose proof (draw_fst s0 3 eq_refl) as B. destruct (draw s0 3) as [l0 s1]. cbn [fst] in B.
        destruct (children_all (P isb) (helper c f isb) (S n') (Hch isb) (Z.to_nat (l0 + 2)) s1) as [Hg Hl].
        destruct (children (helper c f isb) (S n') (Z.to_nat (l0 + 2)) s1) as [chs s2]. cbn [fst] in *.
        apply Pop; [exact Hg|lia].
  Qed.
End Gen.

(* the operators of inner nodes (`=` and `!=` appear in constant leaves only) *)
Definition node_ops : list str := [ss "and"; ss "or"; ss "eq"; ss "not"; ss "+"; ss "-"; ss "*"; ss "/"; ss "%"].

Lemma not_node_op : In (ss "not") node_ops.
Proof. apply mem_str_In. reflexivity. Qed.

Lemma kind_not_logic name o : builtin name = Some o -> (forall m, o <> OLogic m) -> op_kind name = None.
Proof.
  intros Hb Ho. unfold op_kind.
  destruct (is_and name) eqn:Ea; [rewrite (is_and_builtin _ Ea) in Hb; inversion Hb; subst; destruct (Ho _ eq_refl)|].
  destruct (is_or name) eqn:Eo; [rewrite (is_or_builtin _ Eo) in Hb; inversion Hb; subst; destruct (Ho _ eq_refl)|].
  reflexivity.
Qed.

(* on a name that is its own only spelling, the generator's evaluation is the engine's executeOperatorProxy *)
Lemma exec_proxy op vals : str_eqb op (ss "and") = is_and op -> str_eqb op (ss "or") = is_or op ->
  exec op vals = match snd (proxy no_custom op false vals) with Ok r => r | Err _ => VNil end.
Proof.
  intros E1 E2. unfold exec, proxy. rewrite E1, E2. destruct (is_and op && existsb is_false vals); [reflexivity|].
  destruct (is_or op && existsb is_true vals); [reflexivity|]. destruct (existsb is_dne vals); reflexivity.
Qed.

Lemma exec_is_comb op vals r : In op node_ops ->
  comb no_custom op vals = Ok r -> exec op vals = r.
Proof.
  intros Hop H. rewrite exec_proxy, proxy_comb, H; [reflexivity|..];
    repeat (destruct Hop as [<-|Hop]; [reflexivity|]); destruct Hop.
Qed.

Definition ops_bool : list str := [ss "and"; ss "or"; ss "eq"].

Lemma pick_bool r vals : In (pick_op true r vals) ops_bool.
Proof. apply (nth_name_in ["and"; "or"; "eq"]%string), Z.mod_pos_bound. reflexivity. Qed.

Lemma pick_arith r vals : exists m, builtin (pick_op false r vals) = Some (OArith m) /\
  In (pick_op false r vals) node_ops /\
  divides m && existsb (fun v => match v with VInt 0 => true | _ => false end) (tl vals) = false.
Proof.
  unfold pick_op. destruct (existsb _ (tl vals)).
  - destruct (nth_name_in ["+"; "-"; "*"]%string (r mod 3) (Z.mod_pos_bound r 3 eq_refl)) as [<-|[<-|[<-|[]]]];
      [exists AAdd|exists ASub|exists AMul]; (split; [reflexivity|split; [apply mem_str_In; reflexivity|reflexivity]]).
  - destruct (nth_name_in ["+"; "-"; "*"; "/"; "%"]%string (r mod 5) (Z.mod_pos_bound r 5 eq_refl)) as [<-|[<-|[<-|[<-|[<-|[]]]]]];
      [exists AAdd|exists ASub|exists AMul|exists ADiv|exists AMod];
      (split; [reflexivity|split; [apply mem_str_In; reflexivity|apply andb_false_r]]).
Qed.

Lemma pick_nine isb r vals :
  In (pick_op isb r vals) node_ops.
Proof.
  destruct isb; [|destruct (pick_arith r vals) as (_ & _ & H & _); exact H].
  destruct (pick_bool r vals) as [<-|[<-|[<-|[]]]]; apply mem_str_In; reflexivity.
Qed.

(* what the generator reports when nothing is unknown (GenEval states its result with the same predicate under the
   name `typedE`) *)
Definition definite (isb : bool) (v : value) : Prop := if isb then exists b, v = VBool b else exists z, v = VInt z.

Lemma definite_bools vals : Forall (definite true) vals -> exists bs, vals = bools bs.
Proof. induction 1 as [|v vals [b ->] _ [bs ->]]; [exists []; reflexivity|exists (b :: bs); reflexivity]. Qed.
Lemma definite_ints vals : Forall (definite false) vals -> exists zs, vals = ints zs.
Proof. induction 1 as [|v vals [z ->] _ [zs ->]]; [exists []; reflexivity|exists (z :: zs); reflexivity]. Qed.

Lemma definite_known isb vals : Forall (definite isb) vals -> existsb is_dne vals = false.
Proof. induction 1 as [|v vals Hv _ IH]; [reflexivity|]. cbn [existsb]. rewrite IH. destruct isb, Hv as [x ->]; reflexivity. Qed.

Lemma bools_comparable bs : forallb comparable (bools bs) = true.
Proof. induction bs as [|b bs IH]; [reflexivity|exact IH]. Qed.

Lemma bool_strict op bs : In op ops_bool -> (2 <= length bs)%nat ->
  exists b, apply_op no_custom op (bools bs) = Ok (VBool b).
Proof.
  intros [<-|[<-|[<-|[]]]] Hl.
  - eexists. exact (boolop_apply no_custom (ss "and") false bs eq_refl Hl).
  - eexists. exact (boolop_apply no_custom (ss "or") true bs eq_refl Hl).
  - destruct bs as [|x bs]; [inversion Hl|]. unfold apply_op. change (builtin (ss "eq")) with (Some OEq). cbn [apply_opcode bools map].
    rewrite eq_nary; [eexists; reflexivity|cbn [length] in *; rewrite map_length; lia|apply (bools_comparable (x :: bs))].
Qed.

Lemma not_strict v : Forall (definite true) [v] -> exists w, apply_op no_custom (ss "not") [v] = Ok w /\ definite true w.
Proof.
  intros H. inversion H as [|? ? [b ->]]. exists (VBool (negb b)). split; [destruct b; reflexivity|exists (negb b); reflexivity].
Qed.

Lemma arith_loop_ok m zs : divides m && existsb (Z.eqb 0) zs = false -> forall v, exists z, arith_loop m v (ints zs) = Ok (VInt z).
Proof.
  induction zs as [|x zs IH]; intros H v; [eexists; reflexivity|]. cbn [ints map arith_loop existsb] in *.
  rewrite arith_step_spec, (Z.eqb_sym x 0). destruct (divides m); [|apply IH; reflexivity].
  apply orb_false_iff in H. destruct H as [Hx Hzs]. rewrite Hx. apply IH, Hzs.
Qed.

Lemma nozero_ints zs : existsb (fun v => match v with VInt 0 => true | _ => false end) (ints zs) = existsb (Z.eqb 0) zs.
Proof. induction zs as [|x zs IH]; [reflexivity|]. cbn [ints map existsb]. fold (ints zs). rewrite IH. destruct x; reflexivity. Qed.

Lemma arith_strict r zs : (2 <= length zs)%nat -> exists z, apply_op no_custom (pick_op false r (ints zs)) (ints zs) = Ok (VInt z).
Proof.
  intros Hl. destruct (pick_arith r (ints zs)) as (m & Hb & _ & Hm). unfold apply_op. rewrite Hb. cbn [apply_opcode].
  destruct zs as [|v [|w zs]]; cbn [length] in Hl; try lia. change (tl (ints (v :: w :: zs))) with (ints (w :: zs)) in Hm.
  rewrite nozero_ints in Hm. unfold arith. rewrite ints_length, ints_cons. cbn [length Nat.ltb Nat.leb]. apply arith_loop_ok, Hm.
Qed.

Lemma pick_strict isb r vals : Forall (definite isb) vals -> (2 <= length vals)%nat ->
  exists v, apply_op no_custom (pick_op isb r vals) vals = Ok v /\ definite isb v.
Proof.
  intros Hv Hl. destruct isb.
  - destruct (definite_bools _ Hv) as [bs ->]. unfold bools in Hl. rewrite map_length in Hl.
    destruct (bool_strict _ bs (pick_bool r (bools bs)) Hl) as [b Hb]. exists (VBool b). split; [exact Hb|exists b; reflexivity].
  - destruct (definite_ints _ Hv) as [zs ->]. rewrite ints_length in Hl.
    destruct (arith_strict r zs Hl) as [z Hz]. exists (VInt z). split; [exact Hz|exists z; reflexivity].
Qed.

Section GP.
  Variable c : gencfg.

  (* the environment the generator was told about *)
  Definition known : list (str * value) := g_nums c ++ g_bools c.
  Fixpoint lookup (n : str) (l : list (str * value)) : option value :=
    match l with [] => None | (k, v) :: l' => if str_eqb n k then Some v else lookup n l' end.
  Definition gfetch (n : str) (k : Z) : res value := match lookup n known with Some v => Ok v | None => Err (EUnbound n) end.
  Definition gcached (n : str) (k : Z) : bool := match lookup n known with Some _ => true | None => false end.

  Definition wf_cfg : Prop :=
    Forall (fun p => exists z, snd p = VInt z) (g_nums c) /\
    Forall (fun p => exists b, snd p = VBool b) (g_bools c) /\
    Forall (fun p => snd p = VDNE /\ ~ In (fst p) (map fst known)) (g_dnes c) /\
    NoDup (map fst known).
  Hypothesis WF : wf_cfg.

  Notation kleene := (kleene gfetch no_custom gcached).
  Notation subs_ok := (subs_ok no_custom gfetch gcached).
  Notation comb := (comb no_custom).

  (* by conversion `typed isb v` is `v = VDNE \/ definite isb v`, and the proofs below pass from one to the other so *)
  Definition typed (isb : bool) (v : value) : Prop :=
    v = VDNE \/ if isb then exists b, v = VBool b else exists z, v = VInt z.

  Lemma lookup_in n v l : NoDup (map fst l) -> In (n, v) l -> lookup n l = Some v.
  Proof.
    induction l as [|[k w] l IH]; intros Hnd Hin; [destruct Hin|]. cbn [map fst] in Hnd. inversion Hnd; subst. cbn [lookup].
    destruct Hin as [E|Hin].
    - inversion E; subst. rewrite str_eqb_refl. reflexivity.
    - destruct (str_eqb n k) eqn:E; [|apply IH; assumption]. apply list_eqb_N_eq in E. subst k.
      exfalso. match goal with H : ~ In n (map fst l) |- _ => apply H end. apply in_map_iff. exists (n, v). auto.
  Qed.

  Lemma lookup_notin n l : ~ In n (map fst l) -> lookup n l = None.
  Proof.
    induction l as [|[k w] l IH]; intros H; [reflexivity|]. cbn [lookup]. destruct (str_eqb n k) eqn:E.
    - apply list_eqb_N_eq in E. subst. exfalso. apply H. left. reflexivity.
    - apply IH. intros Hin. apply H. right. exact Hin.
  Qed.

  Lemma pool_var (isb : bool) name r : In (name, r) (if isb then g_bools c else g_nums c) ->
    lookup name known = Some r /\ definite isb r.
  Proof.
    intros H. destruct WF as (Hn & Hb & _ & Hnd). rewrite Forall_forall in Hn, Hb. split.
    - apply (lookup_in _ _ _ Hnd), in_or_app. destruct isb; auto.
    - destruct isb; [exact (Hb _ H)|exact (Hn _ H)].
  Qed.

  Lemma dne_var name r : In (name, r) (g_dnes c) -> lookup name known = None /\ r = VDNE.
  Proof.
    intros H. destruct WF as (_ & _ & Hd & _). rewrite Forall_forall in Hd. destruct (Hd _ H) as [Hr Hn].
    split; [exact (lookup_notin _ _ Hn)|exact Hr].
  Qed.

  Lemma typed_known isb vals : Forall (typed isb) vals -> existsb is_dne vals = false -> Forall (definite isb) vals.
  Proof.
    induction 1 as [|v vals Hv _ IH]; intros Hd; [constructor|]. cbn [existsb] in Hd. apply orb_false_iff in Hd.
    destruct Hd as [Hd1 Hd2]. constructor; [|exact (IH Hd2)]. destruct Hv as [->|Hv]; [discriminate|exact Hv].
  Qed.

  Lemma comb_typed isb op vals : (isb = false -> op_kind op = None) ->
    (Forall (definite isb) vals -> exists v, apply_op no_custom op vals = Ok v /\ definite isb v) ->
    Forall (typed isb) vals -> exists v, comb op vals = Ok v /\ typed isb v.
  Proof.
    intros Hk Hs Hv. destruct (existsb is_dne vals) eqn:Hd.
    - destruct (comb_dne no_custom op vals Hd) as [E|(d & Hkd & E)]; rewrite E; eexists; (split; [reflexivity|]).
      + left; reflexivity.
      + right. destruct isb; [exists d; reflexivity|rewrite Hk in Hkd; [discriminate|reflexivity]].
    - destruct (Hs (typed_known _ _ Hv Hd)) as (v & Ha & Hdv). exists v. split; [exact (comb_apply _ _ _ _ Hd Ha)|right; exact Hdv].
  Qed.

  Definition good (isb : bool) (tv : tree * value) : Prop :=
    kleene (fst tv) = Ok (snd tv) /\ subs_ok (fst tv) /\ typed isb (snd tv).

  Lemma kleene_children isb chs : Forall (good isb) chs ->
    all_ok (map kleene (map fst chs)) = Ok (map snd chs) /\
    Forall (fun t => subs_ok t /\ exists v, kleene t = Ok v) (map fst chs) /\ Forall (typed isb) (map snd chs).
  Proof.
    induction 1 as [|[t v] chs (Hk & Hs & Ht) _ (I1 & I2 & I3)]; cbn [map fst snd all_ok] in *; [repeat split; constructor|].
    rewrite Hk, I1. cbn [bind]. repeat split; constructor; eauto.
  Qed.

  Lemma good_op isb op chs : In op node_ops ->
    Forall (good isb) chs -> (Forall (typed isb) (map snd chs) -> exists v, comb op (map snd chs) = Ok v /\ typed isb v) ->
    good isb (TOp op false (map fst chs), exec op (map snd chs)).
  Proof.
    intros Hop Hg Hc. destruct (kleene_children isb chs Hg) as (Hall & Hsub & Hty). destruct (Hc Hty) as (v & Hv & Htv).
    rewrite (exec_is_comb _ _ _ Hop Hv). split; [|split]; cbn [fst snd].
    - rewrite kleene_op, Hall. exact Hv.
    - apply subs_ok_op. exact Hsub.
    - exact Htv.
  Qed.

  Lemma good_consts op ts b : kleene (TOp op false (map TConst ts)) = Ok (VBool b) -> good true (TOp op false (map TConst ts), VBool b).
  Proof.
    intros H. split; [exact H|split; [|right; exists b; reflexivity]]. apply subs_ok_op, Forall_map, Forall_forall.
    intros v _. split; [exact I|exists v; reflexivity].
  Qed.

  Theorem helper_good : forall fuel isb n s, (n < fuel)%nat -> good isb (fst (helper c fuel isb n s)).
  Proof.
    apply helper_ind.
    - intros isb tv [isb' name res _ Hin|isb' name res Hin| | |z Hz].
      + destruct (dne_var _ _ Hin) as [Hl ->]. split; [|split; [exact I|left; reflexivity]].
        cbn [fst Tree.kleene]. unfold gcached. rewrite Hl. reflexivity.
      + destruct (pool_var _ _ _ Hin) as [Hl Hd]. split; [|split; [exact I|right; exact Hd]].
        cbn [fst Tree.kleene]. unfold gcached, gfetch. rewrite Hl. reflexivity.
      + apply (good_consts _ [VInt 0; VInt 0]). reflexivity.
      + apply (good_consts _ [VInt 0; VInt 0]). reflexivity.
      + split; [reflexivity|split; [exact I|right; exists z; reflexivity]].
    - intros t r G. apply (good_op true (ss "not") [(t, r)]); [exact not_node_op|constructor; [exact G|constructor]|].
      apply comb_typed; [discriminate|exact (not_strict r)].
    - intros isb ct cr tt tr ft fr (K1 & S1 & T1) (K2 & S2 & T2) (K3 & S3 & T3). cbn [fst snd] in *. split; [|split]; cbn [fst snd].
      + cbn [Tree.kleene]. rewrite K1. cbn [bind]. destruct T1 as [->|[[] ->]]; [reflexivity|assumption..].
      + cbn [TryFacts.subs_ok]. auto.
      + destruct T1 as [->|[[] ->]]; [left; reflexivity|assumption..].
    - intros isb r chs Hg Hl. apply good_op; [apply pick_nine|exact Hg|]. apply comb_typed.
      + intros ->. destruct (pick_arith r (map snd chs)) as (m & Hb & _). apply (kind_not_logic _ _ Hb). discriminate.
      + intros Hd. apply pick_strict; [exact Hd|rewrite map_length; exact Hl].
  Qed.

  (* C20: the reported result is the strong-Kleene value of the generated expression in the environment of the
     recorded variable values (DNE variables unavailable), and no sub-expression fails *)
  Theorem generate_kleene isb level s :
    let r := generate c isb level s in
    kleene (fst r) = Ok (snd r) /\ subs_ok (fst r) /\ typed isb (snd r).
  Proof. unfold generate. apply helper_good. lia. Qed.

  (* hence TryEval's tree-level meaning returns exactly the reported result *)
  Corollary generate_trysem isb level s :
    let r := generate c isb level s in snd (trysem gfetch no_custom gcached (fst r)) = Ok (snd r).
  Proof.
    cbv zeta. destruct (generate_kleene isb level s) as (Hk & Hs & _). rewrite (trysem_is_kleene _ _ _ _ Hs). exact Hk.
  Qed.
End GP.

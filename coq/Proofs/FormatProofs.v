(* FormatProofs.v — C14, the formatter: IndentByParentheses (model: Print.indent_loop / indent_by_parens) returns a
   text with the same tokens. The loop is followed token by token: on a well-formed token and its separator it writes
   white space, the token and, after a comment, its line break (`fmt_item`); so on a rendering its output is again a
   well-formed rendering of the same tokens (`sim`, `wf_out`), which the lexer reads back (LexProofs.lex_rendering),
   and the final trim only touches a comment that ends the text (`trim_render`). Every source the lexer accepts is
   such a rendering (`lex_complete`). A string literal is recognised only at a token start; a quote inside a word would
   not be, but no word the lexer classifies contains one (`classify_noquote`). *)
Require Import Base Tables Ops Directives Lexer Print OpsList LexProofs PrintProofs.
Open Scope Z_scope.
Open Scope list_scope.

(* `token_start` and `pre_rune`, the local lets of `Print.indent_loop`, as functions of its state *)
Definition tstart (b : str) (p : syn) : bool :=
  match b with [] => true | q :: _ => negb (syn_eqb p SNormal) || (q =? 44)%N || (q =? 34)%N end.
Definition pre_rune (i : Z) (p : syn) : str :=
  (if syn_eqb p SComment then indent_str i else []) ++ (if syn_eqb p SSpace || syn_eqb p SRight then [32%N] else []).

Definition body (rec : str -> str -> str -> Z -> syn -> str) (c : N) (s' b out : str) (i : Z) (p : syn) : str :=
  if (c =? 34)%N && tstart b p then
    let (lit, rest) := copy_through 34 s' in rec rest (rev lit ++ c :: b) (out ++ pre_rune i p ++ c :: lit) i SNormal
  else if is_left c then
    rec s' (c :: b) (out ++ (if syn_eqb p SComment then indent_str i else 10%N :: indent_str i) ++ [c]) (i + 1) SLeft
  else if is_right c then
    rec s' (c :: b) (out ++ (if syn_eqb p SComment then indent_str (i - 1) else []) ++ [c]) (i - 1) SRight
  else if is_space c then
    rec s' (c :: b) out i (if syn_eqb p SComment then SComment else SSpace)
  else if (c =? 59)%N then
    let lead := if syn_eqb p SComment then indent_str i else look_back b i in
    let (cm, rest) := copy_through 10 (c :: s') in rec rest (rev cm ++ b) (out ++ lead ++ cm) i SComment
  else rec s' (c :: b) (out ++ pre_rune i p ++ [c]) i SNormal.

Lemma loop_body f c s' b out i p : indent_loop (S f) (c :: s') b out i p = body (indent_loop f) c s' b out i p.
Proof. reflexivity. Qed.

Lemma copy_through_len stop s : (length (snd (copy_through stop s)) <= pred (length s))%nat.
Proof.
  induction s as [|c s IH]; cbn [copy_through]; [reflexivity|]. destruct (c =? stop)%N; [reflexivity|].
  destruct (copy_through stop s) as [a r]. cbn [snd length pred] in *. lia.
Qed.

Lemma body_shape c s' b out i p : exists s1 b1 X i1 p1,
  (forall rec, body rec c s' b out i p = rec s1 b1 (out ++ X) i1 p1) /\ (length s1 <= length s')%nat.
Proof.
  unfold body. pose proof (copy_through_len 34 s') as L1. pose proof (copy_through_len 10 (c :: s')) as L2.
  destruct (copy_through 34 s') as [lit rest]. destruct (copy_through 10 (c :: s')) as [cm rest']. cbn [snd length pred] in *.
  destruct ((c =? 34)%N && tstart b p); [|destruct (is_left c); [|destruct (is_right c); [|destruct (is_space c); [|destruct (c =? 59)%N]]]].
  4: (eexists _, _, [], _, _; rewrite app_nil_r; split; [reflexivity|lia]).   (* white space: nothing is written *)
  all: eexists _, _, _, _, _; (split; [reflexivity|lia]).
Qed.

Lemma fuel_irrel : forall f1 f2 s b out i p, (length s < f1)%nat -> (length s < f2)%nat ->
  indent_loop f1 s b out i p = indent_loop f2 s b out i p.
Proof.
  induction f1 as [|f1 IH]; intros f2 s b out i p H1 H2; [lia|]. destruct f2 as [|f2]; [lia|].
  destruct s as [|c s']; [reflexivity|]. rewrite !loop_body. cbn [length] in H1, H2.
  destruct (body_shape c s' b out i p) as (s1 & b1 & X & i1 & p1 & E & L). rewrite !E. apply IH; lia.
Qed.

Definition fmt (s b out : str) (i : Z) (p : syn) : str := indent_loop (S (length s)) s b out i p.

Lemma fmt_nil b out i p : fmt [] b out i p = out.
Proof. reflexivity. Qed.

Lemma fmt_cons c s' b out i p : fmt (c :: s') b out i p = body fmt c s' b out i p.
Proof.
  unfold fmt at 1. cbn [length]. rewrite loop_body. destruct (body_shape c s' b out i p) as (s1 & b1 & X & i1 & p1 & E & L).
  rewrite !E. apply fuel_irrel; lia.
Qed.

Lemma indent_by_parens_fmt s : indent_by_parens s = trim (fmt s [] [] 0 SNormal).
Proof. reflexivity. Qed.

Lemma space_class c : is_space c = true -> (c =? 34)%N = false /\ is_left c = false /\ is_right c = false.
Proof.
  intros H. unfold is_left, is_right.
  destruct (N.eqb_spec c 34); [subst; discriminate|]. destruct (N.eqb_spec c 91); [subst; discriminate|].
  destruct (N.eqb_spec c 40); [subst; discriminate|]. destruct (N.eqb_spec c 93); [subst; discriminate|].
  destruct (N.eqb_spec c 41); [subst; discriminate|]. repeat split; reflexivity.
Qed.

(* the loop's `prev` once it has skipped the white space `sp`, having been `p` before *)
Definition sp_prev (sp : str) (p : syn) : syn :=
  match sp with [] => p | _ => if syn_eqb p SComment then SComment else SSpace end.

Lemma fmt_spaces sp : all_space sp -> forall more b out i p,
  fmt (sp ++ more) b out i p = fmt more (rev sp ++ b) out i (sp_prev sp p).
Proof.
  induction 1 as [|c sp Hc _ IH]; intros more b out i p; [reflexivity|].
  cbn [app]. rewrite fmt_cons. unfold body. destruct (space_class c Hc) as (E1 & E2 & E3).
  rewrite E1, E2, E3, Hc. cbn [andb]. rewrite IH. cbn [rev]. rewrite <- app_assoc. cbn [app sp_prev].
  f_equal. destruct sp; cbn [sp_prev]; destruct p; reflexivity.
Qed.

Lemma wordc_class c : wordc c = true -> is_left c = false /\ is_right c = false /\ is_space c = false /\ (c =? 59)%N = false.
Proof.
  intros H. destruct (wordc_inv c H) as [Hs Hd]. unfold is_delim in Hd. unfold is_left, is_right.
  destruct (c =? 40)%N, (c =? 41)%N, (c =? 91)%N, (c =? 93)%N, (c =? 59)%N; try discriminate Hd. repeat split; try reflexivity. exact Hs.
Qed.

Lemma fmt_word_first c more b out i p : wordc c = true -> c <> 34%N ->
  fmt (c :: more) b out i p = fmt more (c :: b) (out ++ pre_rune i p ++ [c]) i SNormal.
Proof.
  intros Hc Hq. rewrite fmt_cons. unfold body. destruct (wordc_class c Hc) as (E1 & E2 & E3 & E4).
  apply N.eqb_neq in Hq. rewrite Hq, E1, E2, E3, E4. reflexivity.
Qed.

Lemma fmt_word w : forall c more b out i p, Forall (fun c => wordc c = true) (c :: w) -> ~ In 34%N (c :: w) ->
  fmt ((c :: w) ++ more) b out i p = fmt more (rev (c :: w) ++ b) (out ++ pre_rune i p ++ c :: w) i SNormal.
Proof.
  induction w as [|d w IH]; intros c more b out i p Hw Hq; inversion Hw as [|? ? Hc Hw']; subst;
    destruct (notin_eqb _ _ _ Hq) as [E Hq']; apply N.eqb_neq in E; cbn [app]; rewrite fmt_word_first by assumption.
  - reflexivity.
  - change (d :: w ++ more) with ((d :: w) ++ more). rewrite IH by assumption.
    cbn [rev pre_rune syn_eqb orb app]. rewrite <- !app_assoc. reflexivity.
Qed.

Lemma copy_through_app stop content s : ~ In stop content -> copy_through stop (content ++ stop :: s) = (content ++ [stop], s).
Proof.
  induction content as [|c content IH]; intros H; cbn [app copy_through]; [rewrite N.eqb_refl; reflexivity|].
  destruct (notin_eqb _ _ _ H) as [E H']. rewrite E, (IH H'). reflexivity.
Qed.
Lemma copy_through_end stop content : ~ In stop content -> copy_through stop content = (content, []).
Proof.
  induction content as [|c content IH]; intros H; cbn [copy_through]; [reflexivity|].
  destruct (notin_eqb _ _ _ H) as [E H']. rewrite E, (IH H'). reflexivity.
Qed.

Lemma fmt_string s more b out i p : ~ In 34%N s -> tstart b p = true ->
  fmt ((34%N :: s ++ [34%N]) ++ more) b out i p =
  fmt more (rev (34%N :: s ++ [34%N]) ++ b) (out ++ pre_rune i p ++ 34%N :: s ++ [34%N]) i SNormal.
Proof.
  intros Hs Ht. cbn [app]. rewrite <- app_assoc, fmt_cons. unfold body. rewrite Ht. cbn [N.eqb Pos.eqb andb app].
  rewrite copy_through_app by exact Hs. cbn [rev]. rewrite <- app_assoc. reflexivity.
Qed.

Lemma fmt_semicolon s' b out i p : fmt (59%N :: s') b out i p =
  let (cm, rest) := copy_through 10 (59%N :: s') in
  fmt rest (rev cm ++ b) (out ++ (if syn_eqb p SComment then indent_str i else look_back b i) ++ cm) i SComment.
Proof. rewrite fmt_cons. reflexivity. Qed.

Lemma fmt_comment_nl text more b out i p : ~ In 10%N text ->
  fmt ((59%N :: text) ++ 10%N :: more) b out i p =
  fmt more (rev (59%N :: text ++ [10%N]) ++ b)
      (out ++ (if syn_eqb p SComment then indent_str i else look_back b i) ++ 59%N :: text ++ [10%N]) i SComment.
Proof.
  intros Hn. cbn [app]. rewrite fmt_semicolon. change (59%N :: text ++ 10%N :: more) with ((59%N :: text) ++ 10%N :: more).
  rewrite copy_through_app by (intros [E|H]; [discriminate|exact (Hn H)]). reflexivity.
Qed.
Lemma fmt_comment_end text b out i p : ~ In 10%N text ->
  fmt (59%N :: text) b out i p = out ++ (if syn_eqb p SComment then indent_str i else look_back b i) ++ 59%N :: text.
Proof.
  intros Hn. rewrite fmt_semicolon, copy_through_end by (intros [E|H]; [discriminate|exact (Hn H)]). reflexivity.
Qed.

Lemma fmt_left c more b out i p : c = 40%N \/ c = 91%N ->
  fmt (c :: more) b out i p = fmt more (c :: b) (out ++ (if syn_eqb p SComment then indent_str i else 10%N :: indent_str i) ++ [c]) (i + 1) SLeft.
Proof. intros [-> | ->]; rewrite fmt_cons; reflexivity. Qed.
Lemma fmt_right c more b out i p : c = 41%N \/ c = 93%N ->
  fmt (c :: more) b out i p = fmt more (c :: b) (out ++ (if syn_eqb p SComment then indent_str (i - 1) else []) ++ [c]) (i - 1) SRight.
Proof. intros [-> | ->]; rewrite fmt_cons; reflexivity. Qed.
Lemma fmt_comma more b out i p :
  fmt (44%N :: more) b out i p = fmt more (44%N :: b) (out ++ pre_rune i p ++ [44%N]) i SNormal.
Proof. rewrite fmt_cons. reflexivity. Qed.

Definition prefix (t : tok) (b : str) (i : Z) (p : syn) : str :=
  match t with
  | KLParen | KLBracket => if syn_eqb p SComment then indent_str i else 10%N :: indent_str i
  | KRParen | KRBracket => if syn_eqb p SComment then indent_str (i - 1) else []
  | KComment _ => if syn_eqb p SComment then indent_str i else look_back b i
  | _ => pre_rune i p
  end.
Definition tok_indent (t : tok) (i : Z) : Z :=
  match t with KLParen | KLBracket => i + 1 | KRParen | KRBracket => i - 1 | _ => i end.
Definition tok_prev (t : tok) : syn :=
  match t with KLParen | KLBracket => SLeft | KRParen | KRBracket => SRight | KComment _ => SComment | _ => SNormal end.
Definition suffix (t : tok) (sep : str) : str :=
  if is_comment t then match sep with [] => [] | _ => [10%N] end else [].

Definition pre_of (items : list (tok * str)) (b : str) (i : Z) (p : syn) : str :=
  match items with [] => [] | (u, _) :: _ => prefix u b i p end.

(* the formatted items: the same tokens, each followed by (its line break and) what the formatter writes before
   the next token; state = consumed input reversed, indent, previous syntax class *)
Fixpoint fitems (items : list (tok * str)) (b : str) (i : Z) (p : syn) : list (tok * str) :=
  match items with
  | [] => []
  | (t, sep) :: rest =>
    let b' := rev (tok_text t ++ sep) ++ b in
    let i' := tok_indent t i in
    let p' := sp_prev sep (tok_prev t) in
    (t, suffix t sep ++ pre_of rest b' i' p') :: fitems rest b' i' p'
  end.

Lemma fitems_toks items : forall b i p, map fst (fitems items b i p) = map fst items.
Proof. induction items as [|[t sep] rest IH]; intros b i p; cbn [fitems map fst]; [reflexivity|]. rewrite IH. reflexivity. Qed.

(* true of every word the lexer classifies (`classify_noquote`) *)
Definition noq (items : list (tok * str)) : Prop :=
  Forall (fun it => match fst it with KInt s | KIdent s => ~ In 34%N s | _ => True end) items.

(* a string literal is met at a token start *)
Definition J (items : list (tok * str)) (b : str) (p : syn) : Prop :=
  match items with (KStr _, _) :: _ => tstart b p = true | _ => True end.

Lemma tstart_after b p : syn_eqb p SNormal = false -> tstart b p = true.
Proof. intros H. unfold tstart. rewrite H. destruct b; reflexivity. Qed.

Lemma indent_space i : all_space (indent_str i).
Proof. apply spaces_space. Qed.
Lemma look_back_space b i : all_space (look_back b i).
Proof.
  induction b as [|c b IH]; cbn [look_back]; [constructor|]. destruct (negb (is_space c)); [repeat constructor|].
  destruct (c =? 10)%N; [constructor; [reflexivity|apply indent_space]|exact IH].
Qed.
Lemma all_space_app a b : all_space a -> all_space b -> all_space (a ++ b).
Proof. intros Ha Hb. apply Forall_app. split; assumption. Qed.
Lemma pre_rune_space i p : all_space (pre_rune i p).
Proof.
  unfold pre_rune. apply all_space_app; [destruct (syn_eqb p SComment); [apply indent_space|constructor]|].
  destruct (syn_eqb p SSpace || syn_eqb p SRight); repeat constructor.
Qed.
Lemma prefix_space u b i p : all_space (prefix u b i p).
Proof.
  destruct u; cbn [prefix]; try apply pre_rune_space; destruct (syn_eqb p SComment);
    try apply indent_space; try apply look_back_space; try constructor; try reflexivity; apply indent_space.
Qed.
Lemma pre_of_space items b i p : all_space (pre_of items b i p).
Proof. destruct items as [|[u su] r]; [constructor|apply prefix_space]. Qed.

Lemma sp_prev_word t sep : is_word_tok t = true -> sep <> [] -> sp_prev sep (tok_prev t) = SSpace.
Proof. intros Hw Hs. destruct sep; [contradiction|]. destruct t; try discriminate; reflexivity. Qed.

Section F.
  Variable is_letter is_number : N -> bool.
  Notation wf_tok := (wf_tok is_letter is_number).
  Notation wf_items := (wf_items is_letter is_number).
  Notation tok_head := (tok_head is_letter is_number).

  Lemma render_nil_inv infix items : wf_items infix items -> render items = [] -> items = [].
  Proof.
    destruct items as [|[t sep] rest]; [reflexivity|]. cbn [LexProofs.wf_items render]. intros (Ht & _) E.
    destruct (tok_head infix t Ht) as (c & r & Et & _). rewrite Et in E. discriminate.
  Qed.

  (* after a token and its separator, a quote is at a token start: white space, a delimiter or a closing quote precedes it
     (a word does not, since it would have taken the quote in) *)
  Lemma tstart_next t sep next b : sep_ok t sep (34%N :: next) ->
    tstart (rev (tok_text t ++ sep) ++ b) (sp_prev sep (tok_prev t)) = true.
  Proof.
    intros (_ & Hfuse & _). destruct sep as [|c sep]; [|apply tstart_after; destruct (tok_prev t); reflexivity].
    rewrite app_nil_r. cbn [sp_prev].
    destruct t as [s|s|s| | | | | |s]; cbn [tok_text tok_prev]; try (apply tstart_after; reflexivity); try reflexivity.
    1,3: discriminate (Hfuse eq_refl eq_refl).
    cbn [rev]. rewrite rev_app_distr. reflexivity.
  Qed.

  Lemma J_next t sep rest b : sep_ok t sep (render rest) -> J rest (rev (tok_text t ++ sep) ++ b) (sp_prev sep (tok_prev t)).
  Proof. intros Hsep. destruct rest as [|[[] ?] ?]; try exact I. exact (tstart_next t sep _ b Hsep). Qed.

  Lemma fmt_item infix t sep more b out i p : wf_tok infix t -> sep_ok t sep more -> noq [(t, sep)] -> J [(t, sep)] b p ->
    fmt (tok_text t ++ sep ++ more) b out i p =
    fmt more (rev (tok_text t ++ sep) ++ b) (out ++ prefix t b i p ++ tok_text t ++ suffix t sep)
        (tok_indent t i) (sp_prev sep (tok_prev t)).
  Proof.
    intros Ht (Hsp & _ & Hcmt) Hq HJ. apply Forall_inv in Hq. rewrite rev_app_distr, <- (app_assoc (rev sep)).
    destruct (is_comment t) eqn:Hc.
    - destruct t as [| | | | | | | |s]; try discriminate. destruct Ht as (text & -> & Hnl).
      cbn [tok_text prefix tok_indent tok_prev suffix is_comment]. destruct (Hcmt eq_refl) as [[sep' ->]|[-> ->]].
      + inversion Hsp as [|? ? _ Hsp']; subst. rewrite (fmt_comment_nl text (sep' ++ more)) by exact Hnl. rewrite (fmt_spaces sep' Hsp').
        f_equal; [cbn [rev]; rewrite rev_app_distr, <- !app_assoc; reflexivity|destruct sep'; reflexivity].
      + rewrite !app_nil_r, fmt_comment_end by exact Hnl. reflexivity.
    - (* any other token, then its separator *)
      assert (E : forall x, fmt (tok_text t ++ x) b out i p =
                  fmt x (rev (tok_text t) ++ b) (out ++ prefix t b i p ++ tok_text t) (tok_indent t i) (tok_prev t)).
      { intros x. destruct t as [s|s|s| | | | | |s]; try discriminate; cbn [tok_text prefix tok_indent tok_prev app fst] in *.
        1,3: destruct Ht as [(c & w & -> & Hcw & _ & _ & Hw) _]; apply fmt_word; [constructor; assumption|exact Hq].
        - apply fmt_string; [exact Ht|exact HJ].
        - apply fmt_left. auto.
        - apply fmt_right. auto.
        - apply fmt_left. auto.
        - apply fmt_right. auto.
        - apply fmt_comma. }
      rewrite E, (fmt_spaces sep Hsp). unfold suffix. rewrite Hc, app_nil_r. reflexivity.
  Qed.

  Theorem sim infix : forall items b out i p, wf_items infix items -> noq items -> J items b p ->
    fmt (render items) b out i p = out ++ pre_of items b i p ++ render (fitems items b i p).
  Proof.
    induction items as [|[t sep] rest IH]; intros b out i p Hwf Hq HJ.
    - cbn [render pre_of fitems]. rewrite fmt_nil, !app_nil_r. reflexivity.
    - destruct Hwf as (Ht & Hsep & Hrest). inversion Hq as [|? ? Hq1 Hq2]; subst. cbn [render pre_of fitems].
      rewrite (fmt_item infix t sep _ b out i p Ht Hsep (Forall_cons _ Hq1 (Forall_nil _)) HJ).
      rewrite IH by (try assumption; apply J_next; assumption). rewrite <- !app_assoc. reflexivity.
  Qed.

  (* the separator the formatter leaves after a token: the line break of a comment, then `pre`, what it writes before
     the text `next'` that follows in the output (`next` in the input) *)
  Lemma sep_ok_out t sep next pre next' : sep_ok t sep next -> all_space pre ->
    (is_word_tok t = true -> pre = [] -> stops next') -> (next = [] -> pre = [] /\ next' = []) ->
    sep_ok t (suffix t sep ++ pre) next'.
  Proof.
    intros (_ & _ & Hcmt) Hpre Hw Hn. unfold suffix. split; [|split].
    - apply all_space_app; [|exact Hpre]. destruct (is_comment t), sep; repeat constructor.
    - intros E Hwt. apply app_eq_nil in E. apply Hw; [exact Hwt|apply E].
    - intros Hc. rewrite Hc. destruct (Hcmt Hc) as [[sep' ->]|[-> En]]; [left; eexists; reflexivity|right].
      destruct (Hn En) as [-> ->]. split; reflexivity.
  Qed.

  (* after a word nothing is written before the next token only if there was nothing in the input either, or if that
     token starts with a delimiter *)
  Lemma stops_next_tok infix t sep u x x' b i : wf_tok infix u -> sep_ok t sep (tok_text u ++ x) -> is_word_tok t = true ->
    prefix u b i (sp_prev sep (tok_prev t)) = [] -> stops (tok_text u ++ x').
  Proof.
    intros Hu (_ & Hfuse & _) Hw E. destruct sep as [|c sep].
    - destruct (tok_head infix u Hu) as (d & r & Eu & _). rewrite Eu in *. exact (Hfuse eq_refl Hw).
    - rewrite sp_prev_word in E by (exact Hw || discriminate).
      destruct u as [s|s|s| | | | | |s]; try discriminate E; try reflexivity. destruct Hu as (text & -> & _). reflexivity.
  Qed.

  Theorem wf_out infix : forall items b i p, wf_items infix items -> wf_items infix (fitems items b i p).
  Proof.
    induction items as [|[t sep] rest IH]; intros b i p Hwf; [exact I|]. destruct Hwf as (Ht & Hsep & Hrest).
    cbn [fitems LexProofs.wf_items]. split; [exact Ht|split; [|apply IH; exact Hrest]].
    apply (sep_ok_out t sep (render rest)); [exact Hsep|apply pre_of_space| |].
    - intros Hw E. destruct rest as [|[u su] r]; [exact I|]. destruct Hrest as (Hu & _).
      exact (stops_next_tok infix t sep u _ _ _ _ Hu Hsep Hw E).
    - intros E. apply (render_nil_inv infix rest Hrest) in E. subst rest. split; reflexivity.
  Qed.

  Theorem fmt_render infix lead items : all_space lead -> wf_items infix items -> noq items ->
    exists (lead' : str) (items' : list (tok * str)), fmt (lead ++ render items) [] [] 0 SNormal = lead' ++ render items' /\
      all_space lead' /\ wf_items infix items' /\ map fst items' = map fst items.
  Proof.
    intros Hl Hwf Hq. rewrite (fmt_spaces lead Hl). rewrite app_nil_r.
    exists (pre_of items (rev lead) 0 (sp_prev lead SNormal)), (fitems items (rev lead) 0 (sp_prev lead SNormal)).
    split; [|split; [apply pre_of_space|split; [apply wf_out; exact Hwf|apply fitems_toks]]].
    rewrite (sim infix items _ [] 0 _ Hwf Hq); [reflexivity|].
    destruct items as [|[[] ?] ?]; try exact I. destruct lead; [reflexivity|apply tstart_after; reflexivity].
  Qed.

  Corollary lex_fmt infix lead items : all_space lead -> wf_items infix items -> noq items ->
    lex is_letter is_number infix (fmt (lead ++ render items) [] [] 0 SNormal) = Some (map fst items).
  Proof.
    intros Hl Hwf Hq. destruct (fmt_render infix lead items Hl Hwf Hq) as (lead' & items' & E & Hl' & Hwf' & Et).
    rewrite E, (lex_rendering is_letter is_number infix lead' items' Hl' Hwf'), Et. reflexivity.
  Qed.
End F.

Definition rtrim (s : str) : str := rev (trim_left (rev s)).

Lemma trim_rtrim s : trim s = rtrim (trim_left s).
Proof. reflexivity. Qed.

Lemma rtrim_app_space s ws : all_space ws -> rtrim (s ++ ws) = rtrim s.
Proof. intros H. unfold rtrim. rewrite rev_app_distr. rewrite trim_left_spaces by (apply Forall_rev; exact H). reflexivity. Qed.

Lemma rtrim_split t : exists ws, t = rtrim t ++ ws /\ all_space ws.
Proof.
  destruct (trim_left_split (rev t)) as (ws & E & H). exists (rev ws). split; [|apply Forall_rev; exact H].
  unfold rtrim. rewrite <- rev_app_distr, <- E, rev_involutive. reflexivity.
Qed.

Lemma trim_left_keep x c y : is_space c = false -> trim_left (x ++ c :: y) = trim_left x ++ c :: y.
Proof.
  intros Hc. induction x as [|a x IH]; cbn [app trim_left]; [rewrite Hc; reflexivity|]. destruct (is_space a); [exact IH|reflexivity].
Qed.

Lemma rtrim_keep s c t : is_space c = false -> rtrim (s ++ c :: t) = s ++ c :: rtrim t.
Proof.
  intros Hc. unfold rtrim. rewrite rev_app_distr. cbn [rev]. rewrite <- app_assoc. cbn [app].
  rewrite (trim_left_keep _ c _ Hc), rev_app_distr. cbn [rev]. rewrite rev_involutive, <- app_assoc. reflexivity.
Qed.

Lemma rtrim_cons c t : is_space c = false -> rtrim (c :: t) = c :: rtrim t.
Proof. exact (rtrim_keep [] c t). Qed.

Lemma rtrim_in x t : In x (rtrim t) -> In x t.
Proof. intros H. destruct (rtrim_split t) as (ws & E & _). rewrite E. apply in_or_app. left. exact H. Qed.

Lemma rtrim_word_app w Y : Forall (fun c => wordc c = true) w -> rtrim (w ++ Y) = w ++ rtrim Y.
Proof.
  induction w as [|d w _] using rev_ind; [reflexivity|]. intros H. apply Forall_app in H. destruct H as [_ H].
  rewrite <- !app_assoc. apply rtrim_keep. apply wordc_inv. exact (Forall_inv H).
Qed.

Lemma rtrim_word w : Forall (fun c => wordc c = true) w -> rtrim w = w.
Proof. intros H. rewrite <- (app_nil_r w) at 1. rewrite (rtrim_word_app w [] H). apply app_nil_r. Qed.

Definition trim_last (toks : list tok) : list tok :=
  match rev toks with KComment s :: r => rev r ++ [KComment (rtrim s)] | _ => toks end.

Definition trim_tok (t : tok) : tok := match t with KComment s => KComment (rtrim s) | _ => t end.

Lemma trim_last_snoc a t : trim_last (a ++ [t]) = a ++ [trim_tok t].
Proof. unfold trim_last. rewrite rev_app_distr. cbn [rev app]. destruct t; try reflexivity. rewrite rev_involutive. reflexivity. Qed.

Lemma trim_tok_other u : is_comment u = false -> trim_tok u = u.
Proof. destruct u; try discriminate; reflexivity. Qed.

Lemma trim_last_drop toks : drop_comments (trim_last toks) = drop_comments toks.
Proof.
  induction toks as [|t a _] using rev_ind; [reflexivity|]. rewrite trim_last_snoc, !drop_comments_app. destruct t; reflexivity.
Qed.

Section T.
  Variable is_letter is_number : N -> bool.
  Notation wf_tok := (wf_tok is_letter is_number).
  Notation wf_items := (wf_items is_letter is_number).
  Notation tok_head := (tok_head is_letter is_number).

  Lemma trim_tok_text infix t : wf_tok infix t -> wf_tok infix (trim_tok t) /\ tok_text (trim_tok t) = rtrim (tok_text t).
  Proof.
    destruct t as [s|s|s| | | | | |s]; cbn [trim_tok tok_text]; intros Ht; try (split; [exact Ht|reflexivity]).
    1,3: split; [exact Ht|]; destruct Ht as [(c & w & -> & Hc & _ & _ & Hw) _]; symmetry; apply rtrim_word; constructor; assumption.
    - split; [exact Ht|]. symmetry. exact (rtrim_keep (34%N :: s) 34%N [] eq_refl).
    - destruct Ht as (text & -> & Hnl). rewrite (rtrim_cons 59%N text eq_refl).
      split; [|reflexivity]. exists (rtrim text). split; [reflexivity|]. intros H. exact (Hnl (rtrim_in _ _ H)).
  Qed.

  Lemma sep_ok_hd t sep n1 n2 : hd_error n1 = hd_error n2 -> sep_ok t sep n1 -> sep_ok t sep n2.
  Proof.
    intros E H. destruct n1 as [|c1 n1], n2 as [|c2 n2]; try discriminate E; [exact H|]. injection E as ->.
    destruct H as (H1 & H2 & H3). split; [exact H1|split; [exact H2|]].
    intros Hc. destruct (H3 Hc) as [L|[_ E]]; [left; exact L|discriminate E].
  Qed.

  Lemma wf_replace_last infix t t' sep : wf_tok infix t' -> hd_error (tok_text t') = hd_error (tok_text t) ->
    forall its, wf_items infix (its ++ [(t, sep)]) -> wf_items infix (its ++ [(t', [])]).
  Proof.
    intros Ht' Eh. destruct (tok_head infix t' Ht') as (c & r & E' & _). rewrite E' in Eh.
    induction its as [|[u su] its IH]; cbn [app LexProofs.wf_items]; intros (Hu & Hs & Hr).
    - split; [exact Ht'|split; [|exact I]]. split; [constructor|split; [intros; exact I|intros; right; split; reflexivity]].
    - split; [exact Hu|split; [|apply IH; exact Hr]]. revert Hs. apply sep_ok_hd. rewrite !render_app. cbn [render]. rewrite E'.
      destruct (render its); [|reflexivity]. destruct (tok_text t); [discriminate Eh|symmetry; exact Eh].
  Qed.

  Lemma fst_nonspace infix items : wf_items infix items -> trim_left (render items) = render items.
  Proof.
    destruct items as [|[t sep] rest]; [reflexivity|]. intros (Ht & _). exact (trim_left_tok _ _ infix t _ Ht).
  Qed.

  Lemma wf_items_last infix its t sep : wf_items infix (its ++ [(t, sep)]) -> wf_tok infix t /\ all_space sep.
  Proof.
    induction its as [|[u su] its IH]; cbn [app LexProofs.wf_items]; [|tauto]. intros (H & (H2 & _) & _). split; assumption.
  Qed.

  Theorem trim_render infix lead items : all_space lead -> wf_items infix items ->
    exists items', trim (lead ++ render items) = render items' /\ wf_items infix items' /\
                   map fst items' = trim_last (map fst items).
  Proof.
    intros Hl Hwf. rewrite trim_rtrim, (trim_left_spaces lead _ Hl), (fst_nonspace infix items Hwf).
    induction items as [|[t sep] its _] using rev_ind; [exists []; repeat split|].
    destruct (wf_items_last infix its t sep Hwf) as [Ht Hsep]. destruct (trim_tok_text infix t Ht) as [Ht' Et].
    destruct (tok_head infix t Ht) as (c & r & E & Hc).
    exists (its ++ [(trim_tok t, [])]). split; [|split].
    - rewrite !render_app. cbn [render]. rewrite !app_nil_r, Et, E, app_assoc, rtrim_app_space by exact Hsep.
      rewrite (rtrim_cons c r Hc). apply rtrim_keep. exact Hc.
    - apply (wf_replace_last infix t _ sep); [exact Ht'| |exact Hwf]. rewrite Et, E, (rtrim_cons c r Hc). reflexivity.
    - rewrite !map_app. apply eq_sym, trim_last_snoc.
  Qed.

  (* IndentByParentheses on every rendering of every well-formed token list: the lexer reads the same tokens and
     comments from the result (a comment ending the text loses its trailing white space) *)
  Theorem indent_tokens infix lead items : all_space lead -> wf_items infix items -> noq items ->
    lex is_letter is_number infix (indent_by_parens (lead ++ render items)) = Some (trim_last (map fst items)).
  Proof.
    intros Hl Hwf Hq. rewrite indent_by_parens_fmt.
    destruct (fmt_render is_letter is_number infix lead items Hl Hwf Hq) as (lead' & items' & E & Hl' & Hwf' & Et).
    rewrite E. destruct (trim_render infix lead' items' Hl' Hwf') as (items'' & E2 & Hwf'' & Et'').
    rewrite E2, <- Et, <- Et''. exact (lex_rendering is_letter is_number infix [] items'' (Forall_nil _) Hwf'').
  Qed.

  (* what the parser sees — the tokens without the comments — is unchanged *)
  Corollary indent_meaning infix lead items : all_space lead -> wf_items infix items -> noq items ->
    option_map drop_comments (lex is_letter is_number infix (indent_by_parens (lead ++ render items))) =
    option_map drop_comments (lex is_letter is_number infix (lead ++ render items)).
  Proof.
    intros Hl Hwf Hq. rewrite (indent_tokens infix lead items Hl Hwf Hq), (lex_rendering is_letter is_number infix lead items Hl Hwf).
    cbn [option_map]. rewrite trim_last_drop. reflexivity.
  Qed.
End T.

Lemma digits_val_digits s : forall acc v, digits_val acc s = Some v -> Forall (fun c => is_digit c = true) s.
Proof.
  induction s as [|c s IH]; intros acc v H; [constructor|]. cbn [digits_val] in H. destruct (is_digit c) eqn:E; [|discriminate].
  constructor; [exact E|eapply IH; exact H].
Qed.

Lemma pbody_digits neg body v : pbody neg body = Some v -> Forall (fun c => is_digit c = true) body.
Proof.
  unfold pbody. destruct body as [|c r]; [discriminate|]. destruct (digits_val 0 (c :: r)) as [v0|] eqn:E; [|discriminate].
  intros _. eapply digits_val_digits. exact E.
Qed.

Lemma digits_noq body : Forall (fun c => is_digit c = true) body -> ~ In 34%N body.
Proof. intros H Hin. rewrite Forall_forall in H. specialize (H _ Hin). discriminate. Qed.

Lemma valid_int_noq s : valid_int s = true -> ~ In 34%N s.
Proof.
  unfold valid_int. rewrite parse_int_if. destruct s as [|c r]; [intros _ []|].
  assert (D : forall neg body, (if pbody neg body then true else false) = true -> ~ In 34%N body).
  { intros neg body H. destruct (pbody neg body) eqn:E; [|discriminate]. exact (digits_noq _ (pbody_digits _ _ _ E)). }
  destruct (c =? 43)%N eqn:E1; [|destruct (c =? 45)%N eqn:E2]; intros H; [| |exact (D _ _ H)];
    apply N.eqb_eq in E1 || apply N.eqb_eq in E2; subst c; (intros [Hc|Hin]; [discriminate|exact (D _ _ H Hin)]).
Qed.

Lemma lookup_builtin_in name tbl o : lookup_builtin name tbl = Some o -> In name (map (fun p => ss (fst p)) tbl).
Proof.
  induction tbl as [|[k o'] tbl IH]; cbn [lookup_builtin map fst]; [discriminate|].
  destruct (str_eqb name (ss k)) eqn:E; [intros _; left; symmetry; apply list_eqb_N_eq; exact E|intros H; right; exact (IH H)].
Qed.

(* depends on the regenerated operator table *)
Lemma builtin_names_noq : forallb (fun p => negb (existsb (N.eqb 34) (ss (fst p)))) builtin_table = true.
Proof. vm_compute. reflexivity. Qed.

Lemma builtin_noq w : is_builtin_name w = true -> ~ In 34%N w.
Proof.
  unfold is_builtin_name, builtin. destruct (lookup_builtin w builtin_table) as [o|] eqn:E; [|discriminate]. intros _ Hin.
  apply lookup_builtin_in in E. apply in_map_iff in E. destruct E as (p & <- & Hp).
  pose proof builtin_names_noq as B. rewrite forallb_forall in B. specialize (B p Hp). apply negb_true_iff in B.
  assert (existsb (N.eqb 34) (ss (fst p)) = true) by (apply existsb_exists; exists 34%N; split; [exact Hin|reflexivity]). congruence.
Qed.

Section Q.
  Variable is_letter is_number : N -> bool.
  Hypothesis letter_q : is_letter 34%N = false.
  Hypothesis number_q : is_number 34%N = false.

  Lemma ident_scan_noq whole : forall s idx pd last, ident_scan is_letter is_number whole s idx pd last = true ->
    is_builtin_name whole = true \/ ~ In 34%N s.
  Proof.
    induction s as [|r s IH]; intros idx pd last H; [right; intros []|]. cbn [ident_scan] in H.
    destruct (N.eq_dec r 34) as [->|Hne].
    { (* the quote is in none of the classes: the scan ends at the built-in test *)
      left. rewrite letter_q, number_q in H. exact H. }
    assert (Hr : forall idx' pd', ident_scan is_letter is_number whole s idx' pd' last = true ->
                 is_builtin_name whole = true \/ ~ In 34%N (r :: s)).
    { intros idx' pd' H'. destruct (IH _ _ _ H') as [L|R]; [left; exact L|right]. intros [E|Hin]; [exact (Hne E)|exact (R Hin)]. }
    destruct (is_letter r); [exact (Hr _ _ H)|]. destruct (r =? 95)%N; [exact (Hr _ _ H)|].
    destruct (is_number r && negb (idx =? 0)); [exact (Hr _ _ H)|]. destruct (r =? 46)%N; [|left; exact H].
    destruct ((idx =? pd + 1) || (idx =? 0) || (idx =? last)); [discriminate|exact (Hr _ _ H)].
  Qed.

  Lemma valid_ident_noq w : valid_ident is_letter is_number w = true -> ~ In 34%N w.
  Proof. unfold valid_ident. intros H. destruct (ident_scan_noq w w _ _ _ H) as [B|R]; [apply builtin_noq; exact B|exact R]. Qed.

  Lemma classify_noquote infix w ts : classify is_letter is_number infix w = Some ts -> ~ In 34%N w.
  Proof.
    intros H. destruct (classify_inv is_letter is_number infix w ts H) as [d t E Hd _ _|V|V|rest _ E V]; try subst w.
    - intros [->|[]]. discriminate Hd.
    - exact (valid_int_noq w V).
    - exact (valid_ident_noq w V).
    - intros [E|Hin]; [discriminate E|exact (valid_ident_noq rest V Hin)].
  Qed.

  Lemma wf_tok_noq infix t sep : wf_tok is_letter is_number infix t -> noq [(t, sep)].
  Proof.
    intros Ht. constructor; [|constructor]. destruct t; try exact I; exact (classify_noquote infix _ _ (proj2 Ht)).
  Qed.

  Lemma wf_noq infix items : wf_items is_letter is_number infix items -> noq items.
  Proof.
    induction items as [|[t sep] rest IH]; intros H; [constructor|]. destruct H as (Ht & _ & Hr).
    constructor; [exact (Forall_inv (wf_tok_noq infix t sep Ht))|apply IH; exact Hr].
  Qed.

  Theorem indent_tokens_wf infix lead items : all_space lead -> wf_items is_letter is_number infix items ->
    lex is_letter is_number infix (indent_by_parens (lead ++ render items)) = Some (trim_last (map fst items)).
  Proof. intros Hl Hwf. apply indent_tokens; [exact Hl|exact Hwf|apply (wf_noq infix); exact Hwf]. Qed.
End Q.

Print Assumptions indent_tokens_wf.

Section C.
  Variable is_letter is_number : N -> bool.
  Notation wf_items := (wf_items is_letter is_number).
  Notation lex_loop := (lex_loop is_letter is_number).

  Lemma lex_accepted : forall fuel s toks, lex_loop fuel false s = Some toks ->
    exists items, trim_left s = render items /\ wf_items false items /\ map fst items = toks.
  Proof.
    induction fuel as [|f IH]; intros s toks H; [discriminate|].
    destruct (lex_loop_inv is_letter is_number s) as [Es E|t sep next Es Ht Hsep Hn _ E|r _ _ E|c w more _ _ _ _ E]; rewrite E in H; try discriminate.
    - injection H as <-. exists []. repeat split. exact Es.
    - destruct (lex_loop f false (sep ++ next)) as [l|] eqn:El; [|discriminate]. injection H as <-.
      destruct (IH _ _ El) as (items & Ei & Hwf & <-). rewrite Hn in Ei. subst next.
      exists ((t, sep) :: items). split; [exact Es|split; [exact (conj Ht (conj Hsep Hwf))|reflexivity]].
  Qed.

  Theorem lex_complete : forall fuel s toks, lex_loop fuel false s = Some toks ->
    exists lead items, s = lead ++ render items /\ all_space lead /\ wf_items false items /\ map fst items = toks.
  Proof.
    intros fuel s toks H. destruct (lex_accepted fuel s toks H) as (items & Ei & Hwf & Em).
    destruct (trim_left_split s) as (lead & Es & Hl). exists lead, items. rewrite <- Ei. repeat split; assumption.
  Qed.
End C.

Theorem indent_lexable is_letter is_number : is_letter 34%N = false -> is_number 34%N = false ->
  forall s toks, lex is_letter is_number false s = Some toks ->
  lex is_letter is_number false (indent_by_parens s) = Some (trim_last toks).
Proof.
  intros HL HN s toks H. unfold lex in H. destruct (lex_complete is_letter is_number _ s toks H) as (lead & items & -> & Hl & Hwf & <-).
  apply (indent_tokens_wf is_letter is_number HL HN false lead items Hl Hwf).
Qed.

Corollary indent_meaning_lexable is_letter is_number : is_letter 34%N = false -> is_number 34%N = false ->
  forall s toks, lex is_letter is_number false s = Some toks ->
  option_map drop_comments (lex is_letter is_number false (indent_by_parens s)) =
  option_map drop_comments (lex is_letter is_number false s).
Proof.
  intros HL HN s toks H. rewrite (indent_lexable is_letter is_number HL HN s toks H), H. cbn [option_map]. rewrite trim_last_drop. reflexivity.
Qed.

Corollary indent_twice is_letter is_number : is_letter 34%N = false -> is_number 34%N = false ->
  forall s toks, lex is_letter is_number false s = Some toks ->
  option_map drop_comments (lex is_letter is_number false (indent_by_parens (indent_by_parens s))) = Some (drop_comments toks).
Proof.
  intros HL HN s toks H. pose proof (indent_lexable is_letter is_number HL HN s toks H) as H1.
  rewrite (indent_lexable is_letter is_number HL HN _ _ H1). cbn [option_map]. rewrite !trim_last_drop. reflexivity.
Qed.

(* the comments before the first token (where directives are read) are untouched whenever there is a token at all *)
Lemma leading_app a b : existsb (fun t => negb (is_comment t)) a = true -> leading_comments (a ++ b) = leading_comments a.
Proof.
  induction a as [|t a IH]; intros H; [discriminate|]. cbn [existsb] in H. destruct t; try reflexivity.
  cbn [is_comment negb orb] in H. cbn [app leading_comments]. rewrite (IH H). reflexivity.
Qed.
Lemma trim_last_leading toks : existsb (fun t => negb (is_comment t)) toks = true ->
  leading_comments (trim_last toks) = leading_comments toks.
Proof.
  induction toks as [|t a _] using rev_ind; [reflexivity|]. intros H. rewrite trim_last_snoc. destruct t; try reflexivity.
  rewrite existsb_app in H. cbn [existsb is_comment negb orb] in H. rewrite orb_false_r in H. rewrite !leading_app by exact H. reflexivity.
Qed.

Print Assumptions indent_lexable.

(* EvalTopE.v — C12: the event-mode program `compileE t`, run by the model of Expr.Eval, returns what `sem t` returns
   and makes exactly the fetches and operator applications of `sem t`, in order; LOOP events are the only other
   observations, and their positions increase. Together with EvalTop.run_compile_correct: switching events on
   changes nothing but the LOOP events. *)
Require Import Base Tree Flat FlatE Run EvalTop EvalCorrectE LoopOrder.
Open Scope Z_scope.
Open Scope list_scope.

Theorem compileE_alloc t : forall i nd, getn (compileE t) i = Some nd -> osTop nd < alloc (compileE t).
Proof. rewrite compileE_progG. apply progG_alloc. Qed.

Theorem run_compileE_seen fetch custom t :
  seenE 0 (eval fetch custom (compileE t)) (sem_obs (sem fetch custom t)).
Proof.
  rewrite compileE_progG. apply (run_progG_correct fetch custom true seenE t describes_seenE).
Qed.

Theorem run_compileE_correct fetch custom t :
  dl (eval fetch custom (compileE t)) = sem_obs (sem fetch custom t).
Proof. apply run_compileE_seen. Qed.

Corollary events_transparent fetch custom t :
  dl (eval fetch custom (compileE t)) = eval fetch custom (compile t).
Proof. rewrite run_compileE_correct, run_compile_correct. reflexivity. Qed.

Corollary plain_no_loops fetch custom t : dl (eval fetch custom (compile t)) = eval fetch custom (compile t).
Proof.
  rewrite run_compile_correct. unfold dl, sem_obs. cbn [fst snd]. rewrite drop_loops_e2o. reflexivity.
Qed.

Theorem loops_increasing fetch custom t :
  incr_from 0 (loops (fst (eval fetch custom (compileE t)))) = true.
Proof. apply run_compileE_seen. Qed.

Print Assumptions run_compileE_correct.
Print Assumptions loops_increasing.

(* CompFacts.v — where code sits in a program: the unfolding equations of `comp` on operator nodes, placement of a
   code fragment (`placed`), reading a table by index. *)
Require Import Base Tree Flat ListFacts.
From Coq Require Import ZifyBool.
Open Scope Z_scope.
Open Scope list_scope.

Section C.
  Variable last : Z.

  Lemma comp_op_unfold name fast cs base h inh anc mf mt pidx r :
    fast_shape fast cs = false ->
    comp last (TOp name fast cs) base h inh anc mf mt pidx r =
      comp_args last (op_kind name) (lenZ cs) (base + Z.of_nat (size (TOp name fast cs)) - 1)
                (if inh then [] else (mf, mt) :: anc) cs base h
      ++ [ (mk last (KOp name) (lenZ cs) mf mt h r, pidx) ].
  Proof.
    intros Hf. cbn [comp]. rewrite Hf.
    f_equal.
    generalize (base + Z.of_nat (size (TOp name fast cs)) - 1) as ridx.
    generalize (if inh then [] else (mf, mt) :: anc) as anc'.
    generalize (lenZ cs) as n. intros n anc' ridx. clear Hf. revert base h.
    induction cs as [|c cs IH]; intros b hh; cbn [comp_args]; cbv zeta; [reflexivity|].
    f_equal. apply IH.
  Qed.

  Lemma comp_fast_unfold name fast a b base h inh anc mf mt pidx r :
    fast_shape fast [a; b] = true ->
    comp last (TOp name fast [a; b]) base h inh anc mf mt pidx r =
      let k := op_kind name in
      let fl := child_flags k false in
      [ (mk last (KFast name) 2 mf mt h r, pidx);
        (mk last (leaf_kind a) 0 fl (if fany fl then base else base + 1) h k, base);
        (mk last (leaf_kind b) 0 fl (if fany fl then base else base + 2) h k, base) ].
  Proof. intros Hf. cbn [comp]. rewrite Hf. reflexivity. Qed.

End C.

Definition placed (P : list node) (base : Z) (code : list node) : Prop :=
  exists pre post, P = pre ++ code ++ post /\ lenZ pre = base.

(* the same for any table that runs parallel to the nodes (the parent table); `placed` is `sub_at` on nodes *)
Definition sub_at {A} (P : list A) (base : Z) (code : list A) : Prop :=
  exists pre post, P = pre ++ code ++ post /\ lenZ pre = base.

Lemma placed_get {A} (P : list A) base code k nd :
  sub_at P base code -> nth_error code k = Some nd -> nthZ P (base + Z.of_nat k) = Some nd.
Proof.
  intros (pre & post & -> & <-) H. unfold nthZ, lenZ.
  replace (Z.of_nat (length pre) + Z.of_nat k <? 0) with false by lia.
  replace (Z.to_nat (Z.of_nat (length pre) + Z.of_nat k)) with (length pre + k)%nat by lia.
  rewrite nth_error_app2 by lia. replace (length pre + k - length pre)%nat with k by lia.
  rewrite nth_error_app1; [assumption|]. apply nth_error_Some. congruence.
Qed.

Lemma placed_app {A} (P : list A) base a b :
  sub_at P base (a ++ b) -> sub_at P base a /\ sub_at P (base + lenZ a) b.
Proof.
  intros (pre & post & -> & <-). split.
  - exists pre, (b ++ post). now rewrite <- app_assoc.
  - exists (pre ++ a), post. rewrite lenZ_app, <- !app_assoc. split; reflexivity.
Qed.

Lemma placed_bound {A} (P : list A) base code : sub_at P base code -> 0 <= base /\ base + lenZ code <= lenZ P.
Proof.
  intros (pre & post & -> & <-). rewrite !lenZ_app. pose proof (lenZ_nonneg pre). pose proof (lenZ_nonneg post). lia.
Qed.

Lemma placed_cons {A} (P : list A) base x l : sub_at P base (x :: l) -> nthZ P base = Some x /\ sub_at P (base + 1) l.
Proof.
  intros H. change (x :: l) with ([x] ++ l) in H. apply placed_app in H. destruct H as [H1 H2]. split.
  - replace base with (base + Z.of_nat 0) by lia. eapply placed_get; [exact H1|reflexivity].
  - exact H2.
Qed.

Lemma nthZ_range {A} (l : list A) i x : nthZ l i = Some x -> 0 <= i < lenZ l.
Proof.
  unfold nthZ, lenZ. destruct (i <? 0) eqn:E; [discriminate|]. intros H.
  assert (Z.to_nat i < length l)%nat by (apply nth_error_Some; congruence). lia.
Qed.

Lemma nthZ_none {A} (l : list A) i : lenZ l <= i -> nthZ l i = None.
Proof.
  unfold nthZ, lenZ. intros H. destruct (i <? 0) eqn:E; [reflexivity|]. apply nth_error_None. lia.
Qed.

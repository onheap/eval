(* SemFacts.v — facts about the reference semantics used by several properties: what an and/or returns on
   booleans, so that the last-operand rule is the operator's own result on boolean operands; what a deciding operand
   and an untaken branch contribute (nothing); and the four shapes of tree every induction over the compiler's
   recursion splits on (`tree_shape_ind`), with `sem` unfolded at an operator node (`sem_op`, `sem_fast_eq`). *)
Require Import Base Opcode Tables Ops Tree Opt OpsArith OpsList.
Open Scope Z_scope.
Open Scope list_scope.

Lemma size_pos t : (1 <= size t)%nat.
Proof. destruct t; cbn; lia. Qed.

Lemma fast_shape_inv fast cs : fast_shape fast cs = true ->
  exists a b, cs = [a; b] /\ is_leaf a = true /\ is_leaf b = true /\ fast = true.
Proof.
  unfold fast_shape. intros H. apply andb_prop in H. destruct H as [H1 H2].
  destruct cs as [|a [|b [|c cs]]]; try discriminate. apply andb_prop in H2. destruct H2. eauto 8.
Qed.

Lemma leaf_size t : is_leaf t = true -> size t = 1%nat.
Proof. destruct t; cbn; congruence. Qed.

Lemma tree_shape_ind (P : tree -> Prop) :
  (forall t, is_leaf t = true -> P t) ->
  (forall name a b, fast_shape true [a; b] = true -> P (TOp name true [a; b])) ->
  (forall name fast cs, fast_shape fast cs = false -> Forall P cs -> P (TOp name fast cs)) ->
  (forall c t f, P c -> P t -> P f -> P (TIf c t f)) ->
  forall t, P t.
Proof.
  intros Hl Hf Ho Hi. induction t as [v|n k|name fast cs IH|c t f IHc IHt IHf] using tree_ind2; auto.
  destruct (fast_shape fast cs) eqn:Hfs; [|auto].
  destruct (fast_shape_inv _ _ Hfs) as (a & b & -> & _ & _ & ->). auto.
Qed.

Lemma in_names_inv name l : in_names name l = true -> exists k, In k l /\ name = ss k.
Proof.
  unfold in_names. rewrite existsb_exists. intros [k [Hk He]]. exists k. split; [exact Hk|].
  apply list_eqb_N_eq. exact He.
Qed.

Lemma names_builtin l o name : Forall (fun k => builtin (ss k) = Some o) l -> in_names name l = true -> builtin name = Some o.
Proof. intros Hl H. destruct (in_names_inv _ _ H) as (k & Hk & ->). exact (proj1 (Forall_forall _ _) Hl k Hk). Qed.

(* `TableFacts.alias_tables_agree` says this of the tables' `string` keys; `builtin` and `is_and` compare `ss` images by
   `str_eqb`, so each of the six spellings is looked up here rather than the table fact transported *)
Lemma is_and_builtin name : is_and name = true -> builtin name = Some (OLogic LAnd).
Proof. apply names_builtin. repeat constructor. Qed.
Lemma is_or_builtin name : is_or name = true -> builtin name = Some (OLogic LOr).
Proof. apply names_builtin. repeat constructor. Qed.

Lemma op_kind_and name : op_kind name = Some false -> is_and name = true.
Proof. unfold op_kind. destruct (is_and name); [reflexivity|]. destruct (is_or name); discriminate. Qed.
Lemma op_kind_or name : op_kind name = Some true -> is_or name = true /\ is_and name = false.
Proof. unfold op_kind. destruct (is_and name); [discriminate|]. destruct (is_or name); [auto|discriminate]. Qed.

Lemma kind_builtin name d : op_kind name = Some d -> builtin name = Some (OLogic (if d then LOr else LAnd)).
Proof.
  intros H. destruct d; [apply is_or_builtin, (op_kind_or _ H)|apply is_and_builtin, (op_kind_and _ H)].
Qed.

Lemma boolop_apply custom name d bs : op_kind name = Some d -> (2 <= length bs)%nat ->
  apply_op custom name (bools bs) = Ok (VBool (if existsb (Bool.eqb d) bs then d else negb d)).
Proof.
  intros Hk Hl. unfold apply_op. rewrite (kind_builtin _ _ Hk). cbn [apply_opcode].
  destruct bs as [|a [|b bs]]; cbn [length] in Hl; try lia.
  assert (E : forall l, (if d then existsb (fun x => x) l else forallb (fun x => x) l) = if existsb (Bool.eqb d) l then d else negb d).
  { induction l as [|x l IH]; [destruct d; reflexivity|]. cbn [existsb forallb]. destruct d, x; cbn; try reflexivity; exact IH. }
  rewrite <- E. destruct d; [apply logic_or_any|apply logic_and_all].
Qed.

Lemma nd_bools d acc : Forall (fun v => v = VBool (negb d)) acc ->
  exists bs, acc = bools bs /\ existsb (Bool.eqb d) bs = false.
Proof.
  induction 1 as [|v acc -> _ (bs & -> & E)]; [exists []|exists (negb d :: bs)]; split; try reflexivity.
  cbn [existsb]. rewrite E. destruct d; reflexivity.
Qed.

(* `sem` evaluates the operands of an operator node by an inner loop of its own, which is `sem_args` *)
Lemma sem_op fetch custom name fast cs : fast_shape fast cs = false ->
  sem fetch custom (TOp name fast cs) = sem_args fetch custom name cs [].
Proof.
  intros Hf. cbn [sem]. rewrite Hf. clear Hf. generalize (@nil value).
  induction cs as [|c cs IH]; intros acc; cbn [sem_args]; [reflexivity|].
  destruct (sem fetch custom c) as [tr [v|e]]; [|reflexivity].
  cbv zeta. destruct (operand_result _ _ v); [reflexivity|]. rewrite IH. reflexivity.
Qed.

Section S.
  Variable fetch : str -> Z -> res value.
  Variable custom : str -> list value -> res value.

  (* when every earlier operand was a non-deciding boolean, applying the operator to all operands yields the
     last operand's value: returning it directly (what the engine does) is the operator's own result *)
  Theorem last_operand_rule name d b acc :
    op_kind name = Some d -> acc <> [] -> Forall (fun v => v = VBool (negb d)) acc ->
    apply_op custom name (rev (VBool b :: acc)) = Ok (VBool b).
  Proof.
    intros Hk Hne Hacc. destruct (nd_bools d _ (Forall_rev Hacc)) as (bs & E & Ex).
    cbn [rev]. rewrite E. change [VBool b] with (bools [b]). unfold bools. rewrite <- map_app.
    rewrite (boolop_apply custom name d _ Hk).
    - rewrite existsb_app, Ex. cbn. destruct d, b; reflexivity.
    - apply (f_equal (@length _)) in E. unfold bools in E. rewrite rev_length, map_length in E.
      rewrite app_length, <- E. destruct acc; [congruence|cbn [length]; lia].
  Qed.

  Lemma apply_few name d acc : op_kind name = Some d -> (length acc < 2)%nat -> forall v, apply_op custom name (rev acc) <> Ok v.
  Proof.
    intros Hk Hl v. unfold apply_op. rewrite (kind_builtin _ _ Hk). cbn [apply_opcode].
    rewrite logic_count_error by (rewrite rev_length; exact Hl). discriminate.
  Qed.

  Lemma apply_all_nd name d acc : op_kind name = Some d -> Forall (fun v => v = VBool (negb d)) acc -> (2 <= length acc)%nat ->
    apply_op custom name (rev acc) = Ok (VBool (negb d)).
  Proof.
    intros Hk Ha Hl. destruct acc as [|x acc']; [cbn in Hl; lia|]. inversion Ha; subst.
    apply (last_operand_rule name d (negb d) acc' Hk); [destruct acc'; [cbn in Hl; lia|discriminate]|assumption].
  Qed.

  Theorem deciding_operand_stops name d c cs' acc tr :
    op_kind name = Some d -> sem fetch custom c = (tr, Ok (VBool d)) ->
    sem_args fetch custom name (c :: cs') acc = (tr, Ok (VBool d)).
  Proof.
    intros Hk Hc. cbn [sem_args]. rewrite Hc, Hk. cbn [operand_result]. rewrite Bool.eqb_reflx. reflexivity.
  Qed.

  Theorem failing_operand_stops name c cs' acc tr e :
    sem fetch custom c = (tr, Err e) -> sem_args fetch custom name (c :: cs') acc = (tr, Err e).
  Proof. intros Hc. cbn [sem_args]. rewrite Hc. reflexivity. Qed.

  Theorem if_true_branch c t f tr : sem fetch custom c = (tr, Ok (VBool true)) ->
    sem fetch custom (TIf c t f) = pre tr (sem fetch custom t).
  Proof. intros H. cbn [sem]. rewrite H. reflexivity. Qed.
  Theorem if_false_branch c t f tr : sem fetch custom c = (tr, Ok (VBool false)) ->
    sem fetch custom (TIf c t f) = pre tr (sem fetch custom f).
  Proof. intros H. cbn [sem]. rewrite H. reflexivity. Qed.
  Theorem if_cond_not_bool c t f tr v : sem fetch custom c = (tr, Ok v) -> (forall b, v <> VBool b) ->
    sem fetch custom (TIf c t f) = (tr, Err ECondNotBool).
  Proof. intros H Hv. cbn [sem]. rewrite H. destruct v; try reflexivity. exfalso. eapply Hv; reflexivity. Qed.
  Theorem if_cond_fails c t f tr e : sem fetch custom c = (tr, Err e) ->
    sem fetch custom (TIf c t f) = (tr, Err e).
  Proof. intros H. cbn [sem]. rewrite H. reflexivity. Qed.

  Lemma if_value_inv c t f v : snd (sem fetch custom (TIf c t f)) = Ok v ->
    exists b, snd (sem fetch custom c) = Ok (VBool b) /\ snd (sem fetch custom (if b then t else f)) = Ok v.
  Proof.
    cbn [sem]. destruct (sem fetch custom c) as [tr [vc|e]]; [|discriminate].
    destruct vc as [z|[]|s|li|ls|si|ss'| | |o]; try discriminate; intros H; [exists true|exists false]; (split; [reflexivity|exact H]).
  Qed.

  Theorem optimize_off cfg t :
    (forall name, In name optimizations_order -> pass_on cfg name = false) -> optimize custom cfg t = t.
  Proof.
    intros H. unfold optimize. induction optimizations_order as [|n l IH]; [reflexivity|].
    cbn [fold_left]. rewrite (H n (or_introl eq_refl)). apply IH. intros m Hm. apply H. right. exact Hm.
  Qed.
End S.

(* the one liberty of FastEvaluation: both leaves are fetched (in order), then the operator is applied *)
Lemma sem_fast_eq fetch custom name a b : fast_shape true [a; b] = true ->
  sem fetch custom (TOp name true [a; b]) = sem_fast fetch custom name a b.
Proof. intros Hf. cbn [sem]. rewrite Hf. reflexivity. Qed.

Lemma leaf_val_sem fetch custom t : is_leaf t = true -> leaf_val fetch t = sem fetch custom t.
Proof. destruct t; try discriminate; reflexivity. Qed.

Lemma sem_val_fast fetch custom name a b : fast_shape true [a; b] = true ->
  snd (sem fetch custom (TOp name true [a; b])) =
  bind (snd (sem fetch custom a)) (fun va => bind (snd (sem fetch custom b)) (fun vb => apply_op custom name [va; vb])).
Proof.
  intros Hfs. rewrite (sem_fast_eq _ _ _ _ _ Hfs). unfold sem_fast.
  cbn [fast_shape andb] in Hfs. apply andb_prop in Hfs. destruct Hfs as [Ha Hb].
  rewrite (leaf_val_sem fetch custom a Ha), (leaf_val_sem fetch custom b Hb).
  destruct (sem fetch custom a) as [t1 [va|e1]]; [|reflexivity]. destruct (sem fetch custom b) as [t2 [vb|e2]]; reflexivity.
Qed.

(* DumpStruct.v — C13: Dump's reconstruction of the tree from the parent-index table. For every tree t, in
   either mode of the back end, `dump (progG ev t)` is the structural printing `show t`: the children found
   through the parent table are the operands in order (the `fi` marker of an `if` skipped, event nodes never
   counted), leaves are printed inline, operators on new lines. *)
Require Import Base Tree Flat FlatE CompFacts CompG EvalTop Print ListFacts SemFacts.
From Coq Require Import Lia.
Open Scope Z_scope.
Open Scope list_scope.

Definition piece (depth : nat) (x : str * bool) : str :=
  if snd x then 32%N :: fst x else 10%N :: spaces (2 * S depth) ++ fst x.

Fixpoint show (t : tree) (depth : nat) : str * bool :=
  match t with
  | TConst v => (show_value v, true)
  | TVar n _ => (n, true)
  | TOp name _ cs =>
    match cs with
    | [] => (40%N :: name ++ [41%N], false)
    | _ => (40%N :: name ++ concat (map (fun c => piece depth (show c (S depth))) cs) ++ [41%N], false)
    end
  | TIf c t f =>
    (40%N :: ss "if" ++ concat [piece depth (show c (S depth)); piece depth (show t (S depth)); piece depth (show f (S depth))] ++ [41%N], false)
  end.

Definition outside (x base : Z) (n : nat) : Prop := x < base \/ base + Z.of_nat n <= x.

Lemma outside_neq x base n q : outside x base n -> base <= q < base + Z.of_nat n -> (x =? q) = false.
Proof. unfold outside. intros Ho Hq. apply Z.eqb_neq. lia. Qed.

Section G.
  Variable ev : bool.
  Variable last : Z.
  Notation compG := (compG ev last).
  Notation compG_args := (compG_args ev last).
  Notation gsize := (gsize ev).
  Notation gsizes := (gsizes ev).
  Notation groot := (groot ev).
  Notation emit := (emit ev).
  Notation ez := (ez ev).

  Section Hits.
    (* Dump asks the parent table two questions: which real nodes have the parent x (ke = false: event nodes
       are passed over), and which entries at all have the parent -1 (ke = true: the last of them is the root) *)
    Variable ke : bool.
    Variable x : Z.

    Fixpoint hits (s : Z) (code : list (node * Z)) : list Z :=
      match code with
      | [] => []
      | (nd, p) :: code' => (if (p =? x) && (ke || negb (is_event nd)) then [s] else []) ++ hits (s + 1) code'
      end.

    Lemma hits_app : forall a s b, hits s (a ++ b) = hits s a ++ hits (s + lenZ a) b.
    Proof.
      induction a as [|[nd p] a IH]; intros s b; cbn [app hits].
      - change (lenZ (@nil (node * Z))) with 0. rewrite Z.add_0_r. reflexivity.
      - rewrite IH, lenZ_cons, <- app_assoc. do 3 f_equal. lia.
    Qed.

    Hypothesis Hx : ke = true -> x = -1.

    (* the entries a node at index i owns: itself and, if they count, its event node *)
    Definition own (i : Z) : list Z := (if ke && ev then [i - 1] else []) ++ [i].

    (* x is no index of the n entries at base, a subtree's code whose root has the parent pidx. Where event nodes
       count (x = -1) that is not enough: the event node of a node with parent p has the parent `evp p`, which is
       -1 for p = 0 too. But every parent other than the program root's lies behind an event node, so none is 0. *)
    Definition far (base : Z) (n : nat) (pidx : Z) : Prop :=
      outside x base n /\ (ke = true -> 0 <= base /\ (pidx = -1 \/ ez <= pidx)).

    Lemma far_in [base n pidx] b k q : far base n pidx ->
      base <= b -> b + Z.of_nat k <= base + Z.of_nat n -> q = pidx \/ base + ez <= q -> far b k q.
    Proof. unfold far, outside. intros [Ho Hs] Hb Hk Hq. split; [|intros K; specialize (Hs K)]; lia. Qed.

    Lemma far_neq [base n pidx] q : far base n pidx -> base <= q < base + Z.of_nat n -> (q =? x) = false.
    Proof. unfold far, outside. intros [Ho _] Hq. apply Z.eqb_neq. lia. Qed.

    Lemma hits_emit [base n pidx] s pos nd : far base n pidx -> is_event nd = false ->
      hits s (emit pos nd pidx) = if pidx =? x then own (s + ez) else [].
    Proof.
      unfold far, CompG.emit, own, CompG.ez, en. intros [_ Hs] Hn. destruct ev; cbn [with_event hits]; rewrite Hn; cbn [negb].
      - change (is_event (event_node pos nd)) with true. cbn [negb]. rewrite orb_false_r, orb_true_r, !andb_true_r, app_nil_r.
        destruct ke; [|rewrite andb_false_r; destruct (pidx =? x); reflexivity].
        rewrite (Hx eq_refl), andb_true_r. specialize (Hs eq_refl). change (Z.of_nat 1) with 1 in *. unfold evp. destruct (Z.eqb_spec pidx (-1)).
        + rewrite Z.add_simpl_r. reflexivity.
        + rewrite (proj2 (Z.eqb_neq (pidx - 1) (-1))) by lia. reflexivity.
      - rewrite orb_true_r, !andb_true_r, andb_false_r, !app_nil_r, Z.add_0_r. reflexivity.
    Qed.

    Lemma hits_emit_app [base n pidx] s pos nd rest : far base n pidx -> is_event nd = false ->
      hits s (emit pos nd pidx ++ rest) = (if pidx =? x then own (s + ez) else []) ++ hits (s + ez + 1) rest.
    Proof. intros Hf Hn. rewrite hits_app, (hits_emit _ _ _ Hf Hn), lenZ_emit, Z.add_assoc. reflexivity. Qed.

    (* outside a subtree's index range only the subtree's root can have the parent x *)
    Definition out_ok (t : tree) : Prop := forall base h inh anc mf mt pidx r, far base (gsize t) pidx ->
      hits base (compG t base h inh anc mf mt pidx r) = if pidx =? x then own (groot t base) else [].

    Lemma args_out cs : Forall out_ok cs -> forall ri kk n anc' b hh, far b (gsizes cs) ri -> (ri =? x) = false ->
      hits b (compG_args kk n ri anc' cs b hh) = [].
    Proof.
      intros H ri kk n anc'. induction H as [|c cs Hc _ IH]; intros b hh Hf Hri; cbn [CompG.compG_args]; [reflexivity|].
      cbv zeta. change (gsizes (c :: cs)) with (CompG.gsize ev c + gsizes cs)%nat in Hf.
      rewrite hits_app, lenZ_compG, Hc, Hri, IH by first [exact Hri | apply (far_in _ _ _ Hf); lia]. reflexivity.
    Qed.

    Lemma hits_out t : out_ok t.
    Proof.
      induction t as [v|n k|name fast cs IH|c t f IHc IHt IHf] using tree_ind2; intros base h inh anc mf mt pidx r Hf.
      - cbn [CompG.compG CompG.groot]. apply (hits_emit _ _ _ Hf). reflexivity.
      - cbn [CompG.compG CompG.groot]. apply (hits_emit _ _ _ Hf). reflexivity.
      - pose proof (ez_range ev) as He. assert (Ez : ez = Z.of_nat (en ev)) by reflexivity. destruct (fast_shape fast cs) eqn:Hfs.
        + destruct (fast_shape_inv _ _ Hfs) as (a & b & -> & _ & _ & ->).
          rewrite compG_fast_unfold by exact Hfs. cbv zeta. cbn [CompG.groot]. rewrite Hfs.
          rewrite gsize_fast in Hf by exact Hfs.
          rewrite (hits_emit_app _ _ _ _ Hf) by reflexivity. cbn [hits]. rewrite (far_neq (base + ez) Hf) by lia. apply app_nil_r.
        + rewrite compG_op_unfold by exact Hfs. cbn [CompG.groot]. rewrite Hfs, !op_root by exact Hfs.
          rewrite gsize_op in Hf by exact Hfs. fold (gsizes cs) in Hf.
          rewrite hits_app, lenZ_compG_args, (args_out cs IH) by first [apply (far_in _ _ _ Hf); lia|apply (far_neq _ Hf); lia].
          apply (hits_emit _ _ _ Hf). reflexivity.
      - cbn [CompG.compG CompG.groot]. cbv zeta. cbn [CompG.gsize] in Hf.
        assert (Ez : ez = Z.of_nat (en ev)) by reflexivity. pose proof (gsize_pos ev c). pose proof (gsize_pos ev t). pose proof (gsize_pos ev f).
        remember (base + Z.of_nat (gsize c) + ez) as ifidx eqn:Ei.
        assert (Hi : far base (gsize c) ifidx) by (apply (far_in _ _ _ Hf); lia).
        rewrite hits_app, (hits_emit_app _ _ _ _ Hf), hits_app, (hits_emit_app _ _ _ _ Hi), !lenZ_compG, <- Ei by reflexivity.
        rewrite IHc, IHt, IHf by (apply (far_in _ _ _ Hf); lia).
        rewrite (far_neq ifidx Hf) by lia. cbn [app]. apply app_nil_r.
    Qed.
  End Hits.

  Notation kids := (hits false).

  Lemma far_kids x base n pidx : outside x base n -> far false x base n pidx.
  Proof. intros Ho. split; [exact Ho|discriminate]. Qed.

  Lemma kids_emit x s pos nd pidx : is_event nd = false ->
    kids x s (emit pos nd pidx) = if pidx =? x then [s + ez] else [].
  Proof. eapply (hits_emit false x); [discriminate|apply (far_kids x (x + 1) 0); left; lia]. Qed.

  Lemma kids_emit_app x s pos nd pidx rest : is_event nd = false ->
    kids x s (emit pos nd pidx ++ rest) = (if pidx =? x then [s + ez] else []) ++ kids x (s + ez + 1) rest.
  Proof. eapply (hits_emit_app false x); [discriminate|apply (far_kids x (x + 1) 0); left; lia]. Qed.

  Lemma kids_out x t base h inh anc mf mt pidx r : outside x base (gsize t) ->
    kids x base (compG t base h inh anc mf mt pidx r) = if pidx =? x then [groot t base] else [].
  Proof. intros Ho. apply (hits_out false x); [discriminate|apply far_kids, Ho]. Qed.

  Lemma kids_args_out x ri kk n anc' cs b hh : outside x b (gsizes cs) -> ri <> x ->
    kids x b (compG_args kk n ri anc' cs b hh) = [].
  Proof.
    intros Ho Hri. apply (args_out false x); [discriminate| |apply far_kids, Ho|apply Z.eqb_neq, Hri].
    apply Forall_forall. intros c _. apply hits_out. discriminate.
  Qed.

  (* a conditional's code: three subtrees, the `if` node behind the first and the `fi` marker behind the second *)
  Lemma kids_cond x base A B C pos1 nd1 p1 pos2 nd2 p2 : is_event nd1 = false -> is_event nd2 = false ->
    kids x base (A ++ emit pos1 nd1 p1 ++ B ++ emit pos2 nd2 p2 ++ C) =
      kids x base A ++ (if p1 =? x then [base + lenZ A + ez] else []) ++
      kids x (base + lenZ A + ez + 1) B ++ (if p2 =? x then [base + lenZ A + ez + 1 + lenZ B + ez] else []) ++
      kids x (base + lenZ A + ez + 1 + lenZ B + ez + 1) C.
  Proof. intros H1 H2. rewrite hits_app, kids_emit_app, hits_app, kids_emit_app by assumption. reflexivity. Qed.

  Definition PD (full : list (node * Z)) (m : Z) : prog := {| nodes := map fst full; parents := map snd full; maxStack := m |}.

  Section D.
    Variable full : list (node * Z).
    Variable m : Z.
    Notation P := (PD full m).

    (* getChildIdxes before the if/fi selection *)
    Lemma all_children idx : forall suf pre, full = pre ++ suf ->
      map fst (filter (fun ip : Z * Z => (snd ip =? idx) &&
                   match nthZ (nodes P) (fst ip) with Some nd => negb (is_event nd) | None => false end)
                (combine (map Z.of_nat (seq (length pre) (length suf))) (map snd suf))) = kids idx (lenZ pre) suf.
    Proof.
      induction suf as [|[nd p] suf IH]; intros pre E; [reflexivity|].
      assert (G : nthZ (nodes P) (lenZ pre) = Some nd).
      { apply (placed_cons _ _ _ (map fst suf)). exists (map fst pre), []. rewrite app_nil_r, E, lenZ_map. split; [apply map_app|reflexivity]. }
      specialize (IH (pre ++ [(nd, p)])). rewrite <- app_assoc, app_length, Nat.add_1_r, lenZ_app in IH. change (lenZ [(nd, p)]) with 1 in IH.
      cbn [length seq map combine filter fst snd hits orb]. fold (lenZ pre). rewrite G, <- (IH E).
      destruct ((p =? idx) && negb (is_event nd)); reflexivity.
    Qed.

    Lemma child_idxes_eq idx : child_idxes P idx =
      match nthZ (nodes P) idx with
      | Some nd =>
        if is_cond_kind (kind nd) then
          match kids idx 0 full with a :: b :: _ :: d :: _ => Some [a; b; d] | _ => None end
        else Some (kids idx 0 full)
      | None => None
      end.
    Proof.
      unfold child_idxes. cbn [parents PD]. rewrite map_length.
      pose proof (all_children idx full [] eq_refl) as H. cbn [length] in H. rewrite H. reflexivity.
    Qed.

    Definition dump_kids (f : nat) (depth : nat) : list Z -> option str :=
      fix go (cs : list Z) : option str :=
        match cs with
        | [] => Some []
        | ci :: cs' =>
          match dump_node P f ci (S depth), go cs' with
          | Some (cc, true), Some rest => Some (32%N :: cc ++ rest)
          | Some (cc, false), Some rest => Some (10%N :: spaces (2 * S depth) ++ cc ++ rest)
          | _, _ => None
          end
        end.

    Definition leaf_piece (k : nkind) : str * bool :=
      match k with
      | KEvent _ _ => (ss "eventNode", false)
      | KVar n _ => (n, true)
      | KOp n | KFast n => (40%N :: n ++ [41%N], false)
      | KConst v => (show_value v, true)
      | KIf => (ss "if", true)
      | KFi => (ss "fi", true)
      end.

    Lemma dump_node_S f idx depth : dump_node P (S f) idx depth =
      match nthZ (nodes P) idx with
      | None => None
      | Some nd =>
        if childCnt nd =? 0 then Some (leaf_piece (kind nd))
        else
          match child_idxes P idx with
          | None => None
          | Some cs =>
            match dump_kids f depth cs with
            | Some body => Some (40%N :: node_head (kind nd) ++ body ++ [41%N], false)
            | None => None
            end
          end
      end.
    Proof. cbn [dump_node]. destruct (nthZ (nodes P) idx) as [nd|]; [|reflexivity]. destruct (kind nd); reflexivity. Qed.

    Definition dumps (f depth : nat) (idxs : list Z) (cs : list tree) : Prop :=
      Forall2 (fun ci c => dump_node P f ci (S depth) = Some (show c (S depth))) idxs cs.

    Lemma kids_ok f depth idxs cs : dumps f depth idxs cs ->
      dump_kids f depth idxs = Some (concat (map (fun c => piece depth (show c (S depth))) cs)).
    Proof.
      induction 1 as [|ci c idxs cs H _ IH]; [reflexivity|]. cbn [dump_kids map concat]. fold (dump_kids f depth). rewrite H, IH.
      destruct (show c (S depth)) as [cc []]; cbn [piece fst snd app]; rewrite <- ?app_assoc; reflexivity.
    Qed.

    Lemma dump_leaf f idx depth nd : nthZ (nodes P) idx = Some nd -> childCnt nd = 0 ->
      dump_node P (S f) idx depth = Some (leaf_piece (kind nd)).
    Proof. intros G H. rewrite dump_node_S, G, H. reflexivity. Qed.

    Lemma dump_op_node f idx depth nd cs : nthZ (nodes P) idx = Some nd -> childCnt nd <> 0 -> is_cond_kind (kind nd) = false ->
      dumps f depth (kids idx 0 full) cs ->
      dump_node P (S f) idx depth = Some (40%N :: node_head (kind nd) ++ concat (map (fun c => piece depth (show c (S depth))) cs) ++ [41%N], false).
    Proof.
      intros G H C K. rewrite dump_node_S, child_idxes_eq, G, C, (proj2 (Z.eqb_neq _ _) H), (kids_ok _ _ _ _ K). reflexivity.
    Qed.

    Lemma dump_if_node f idx depth nd a b c d cs : nthZ (nodes P) idx = Some nd -> childCnt nd <> 0 -> is_cond_kind (kind nd) = true ->
      kids idx 0 full = [a; b; c; d] -> dumps f depth [a; b; d] cs ->
      dump_node P (S f) idx depth = Some (40%N :: node_head (kind nd) ++ concat (map (fun c => piece depth (show c (S depth))) cs) ++ [41%N], false).
    Proof.
      intros G H C E K. rewrite dump_node_S, child_idxes_eq, G, C, E, (proj2 (Z.eqb_neq _ _) H), (kids_ok _ _ _ _ K). reflexivity.
    Qed.

    Lemma leaf_show t depth : is_leaf t = true -> leaf_piece (leaf_kind t) = show t depth.
    Proof. destruct t; try discriminate; reflexivity. Qed.

    Lemma leaf_real t cnt fl tg h r : is_event (mk last (leaf_kind t) cnt fl tg h r) = false.
    Proof. destruct t; reflexivity. Qed.

    (* the code of a subtree sits at base, and whatever has one of its indices as parent is among its own nodes *)
    Definition closed_at (base : Z) (code : list (node * Z)) : Prop :=
      placed (nodes P) base (map fst code) /\
      forall x, base <= x < base + lenZ code -> kids x 0 full = kids x base code.

    Definition dump_ok (t : tree) : Prop :=
      forall base h inh anc mf mt pidx r depth fuel,
        closed_at base (compG t base h inh anc mf mt pidx r) -> outside pidx base (gsize t) -> (gsize t <= fuel)%nat ->
        dump_node P fuel (groot t base) depth = Some (show t depth).

    Lemma leaf_dump t : is_leaf t = true -> dump_ok t.
    Proof.
      intros Hl base h inh anc mf mt pidx r depth fuel [Hs _] _ Hf.
      destruct fuel as [|f]; [pose proof (gsize_pos ev t); lia|]. rewrite <- (leaf_show t depth Hl).
      destruct t; try discriminate; cbn [CompG.compG] in Hs; apply emit_at in Hs; apply (dump_leaf _ _ _ _ Hs); reflexivity.
    Qed.

    Lemma fast_dump name a b : fast_shape true [a; b] = true -> dump_ok (TOp name true [a; b]).
    Proof.
      intros Hfs base h inh anc mf mt pidx r depth fuel [Hs Hk] Ho Hf.
      destruct (andb_prop _ _ (Hfs : is_leaf a && is_leaf b = true)) as [Ha Hb].
      rewrite lenZ_compG in Hk. rewrite gsize_fast in * by exact Hfs. rewrite compG_fast_unfold in * by exact Hfs. cbv zeta in *.
      cbn [CompG.groot]. rewrite Hfs. pose proof (ez_range ev) as He. assert (Ez : ez = Z.of_nat (en ev)) by reflexivity.
      destruct fuel as [|[|f]]; try arith.
      apply emit_placed in Hs. destruct Hs as (_ & G1 & Hs). cbn [map fst] in Hs.
      apply placed_cons in Hs. destruct Hs as [G2 Hs]. apply placed_cons in Hs. destruct Hs as [G3 _].
      apply (dump_op_node _ _ _ _ [a; b] G1); [discriminate|reflexivity|].
      rewrite Hk, kids_emit_app, (outside_neq _ _ _ (base + ez) Ho) by first [reflexivity|lia].
      cbn [hits]. rewrite Z.eqb_refl, !leaf_real. cbn [orb negb andb app].
      constructor; [|constructor; [|constructor]].
      - rewrite <- (leaf_show a _ Ha). apply (dump_leaf _ _ _ _ G2). reflexivity.
      - rewrite <- (leaf_show b _ Hb). apply (dump_leaf _ _ _ _ G3). reflexivity.
    Qed.

    Lemma args_dump ri kk n anc' depth f cs : Forall dump_ok cs ->
      forall b hh, closed_at b (compG_args kk n ri anc' cs b hh) -> outside ri b (gsizes cs) -> (gsizes cs <= f)%nat ->
        dumps f depth (kids ri b (compG_args kk n ri anc' cs b hh)) cs.
    Proof.
      induction 1 as [|c cs Hc _ IH]; intros b hh [Hs Hk] Ho Hf; cbn [CompG.compG_args] in *; [constructor|]. cbv zeta in *.
      change (gsizes (c :: cs)) with (gsize c + gsizes cs)%nat in *. pose proof (gsize_pos ev c).
      rewrite lenZ_app, lenZ_compG, lenZ_compG_args in Hk.
      rewrite map_app in Hs. apply placed_app in Hs. destruct Hs as [Hs1 Hs2]. rewrite lenZ_map, lenZ_compG in Hs2.
      rewrite hits_app, lenZ_compG, kids_out, Z.eqb_refl by (unfold outside in *; lia).
      constructor.
      - eapply (Hc b hh); [split; [exact Hs1|]|unfold outside in *; lia|lia].
        intros x Hx. rewrite lenZ_compG in Hx. rewrite Hk, hits_app, lenZ_compG, kids_args_out by (unfold outside in *; lia). apply app_nil_r.
      - apply IH; [split; [exact Hs2|]|unfold outside in *; lia|lia].
        intros x Hx. rewrite lenZ_compG_args in Hx. rewrite Hk, hits_app, lenZ_compG, kids_out by (unfold outside in *; lia).
        rewrite (proj2 (Z.eqb_neq ri x)) by (unfold outside in *; lia). reflexivity.
    Qed.

    Lemma op_dump name fast cs : fast_shape fast cs = false -> Forall dump_ok cs -> dump_ok (TOp name fast cs).
    Proof.
      intros Hfs IH base h inh anc mf mt pidx r depth fuel [Hs Hk] Ho Hf.
      rewrite lenZ_compG in Hk. rewrite compG_op_unfold in * by exact Hfs. cbn [CompG.groot]. rewrite Hfs.
      rewrite !op_root in * by exact Hfs. rewrite gsize_op in * by exact Hfs. fold (gsizes cs) in *.
      remember (base + Z.of_nat (gsizes cs) + ez) as ri eqn:Eri.
      pose proof (ez_range ev) as He. assert (Ez : ez = Z.of_nat (en ev)) by reflexivity.
      destruct fuel as [|f]; [arith|].
      rewrite map_app in Hs. apply placed_app in Hs. destruct Hs as [Hsa Hsr].
      apply emit_at in Hsr. rewrite lenZ_map, lenZ_compG_args, <- Eri in Hsr.
      destruct cs as [|c0 cs0]; [apply (dump_leaf _ _ _ _ Hsr); reflexivity|].
      apply (dump_op_node _ _ _ _ (c0 :: cs0) Hsr); [cbn [childCnt mk]; rewrite lenZ_cons; pose proof (lenZ_nonneg cs0); lia|reflexivity|].
      (* seen from the operands and from ri, the program is the operands' code *)
      eassert (Hin : forall x, base <= x <= ri -> kids x 0 full = kids x base _).
      { intros x Hx. rewrite Hk, hits_app, kids_emit, (outside_neq _ _ _ x Ho) by first [reflexivity|lia]. apply app_nil_r. }
      rewrite Hin by lia. apply (args_dump _ _ _ _ _ _ _ IH); [split; [exact Hsa|]|right; lia|lia].
      intros x Hx. rewrite lenZ_compG_args in Hx. apply Hin. lia.
    Qed.

    Lemma if_dump c t f : dump_ok c -> dump_ok t -> dump_ok f -> dump_ok (TIf c t f).
    Proof.
      intros IHc IHt IHf base h inh anc mf mt pidx r depth fuel [Hs Hk] Ho Hf.
      rewrite lenZ_compG in Hk. cbn [CompG.compG CompG.groot] in *. cbv zeta in *. cbn [CompG.gsize] in *.
      pose proof (ez_range ev) as He. assert (Ez : ez = Z.of_nat (en ev)) by reflexivity.
      pose proof (gsize_pos ev c). pose proof (gsize_pos ev t). pose proof (gsize_pos ev f).
      destruct fuel as [|fu]; [arith|].
      rewrite map_app in Hs. apply placed_app in Hs. destruct Hs as [Hsc Hs]. rewrite lenZ_map, lenZ_compG in Hs.
      apply emit_placed in Hs. destruct Hs as (_ & G & Hs).
      rewrite map_app in Hs. apply placed_app in Hs. destruct Hs as [Hst Hs]. rewrite lenZ_map, lenZ_compG in Hs.
      apply emit_placed in Hs. destruct Hs as (_ & _ & Hsf).
      remember (base + Z.of_nat (gsize c) + ez) as ifidx eqn:Ei.
      assert (Hne : forall x, base <= x < base + Z.of_nat (gsize c + gsize t + gsize f + 2 + 2 * en ev) -> x <> ifidx ->
                      (pidx =? x) = false /\ (ifidx =? x) = false).
      { intros x Hx Hn. split; [apply (outside_neq _ _ _ _ Ho Hx)|apply Z.eqb_neq; lia]. }
      eapply (dump_if_node _ _ _ _ _ _ _ _ [c; t; f] G); [discriminate|reflexivity| |].
      - rewrite Hk, kids_cond, !lenZ_compG, <- Ei, !kids_out by first [reflexivity|lia|left; lia|right; lia].
        rewrite Z.eqb_refl, (outside_neq _ _ _ _ Ho) by lia. reflexivity.
      - constructor; [|constructor; [|constructor; [|constructor]]].
        + eapply (IHc base); [split; [exact Hsc|]|right; lia|lia].
          intros x Hx. rewrite lenZ_compG in Hx. destruct (Hne x) as [E1 E2]; [lia|lia|].
          rewrite Hk, kids_cond, !lenZ_compG, <- Ei, (kids_out _ t), (kids_out _ f), E1, E2 by first [reflexivity|lia|left; lia].
          apply app_nil_r.
        + eapply (IHt (ifidx + 1)); [split; [exact Hst|]|left; lia|lia].
          intros x Hx. rewrite lenZ_compG in Hx. destruct (Hne x) as [E1 E2]; [lia|lia|].
          rewrite Hk, kids_cond, !lenZ_compG, <- Ei, (kids_out _ c), (kids_out _ f), E1, E2 by first [reflexivity|lia|left; lia|right; lia].
          apply app_nil_r.
        + eapply (IHf (ifidx + 1 + Z.of_nat (gsize t) + ez + 1)); [split; [exact Hsf|]|left; lia|lia].
          intros x Hx. rewrite lenZ_compG in Hx. destruct (Hne x) as [E1 E2]; [lia|lia|].
          rewrite Hk, kids_cond, !lenZ_compG, <- Ei, (kids_out _ c), (kids_out _ t), E1, E2 by first [reflexivity|lia|right; lia].
          reflexivity.
    Qed.

    Theorem dump_all : forall t, dump_ok t.
    Proof. apply tree_shape_ind; [apply leaf_dump|apply fast_dump|apply op_dump|apply if_dump]. Qed.
  End D.
End G.

Lemma last_cons {A} (x : A) l d : List.last (x :: l) d = List.last l x.
Proof. revert x d. induction l as [|y l IH]; intros x d; [reflexivity|]. change (List.last (x :: y :: l) d) with (List.last (y :: l) d). rewrite !IH. reflexivity. Qed.

Lemma root_index_hits : forall code s d,
  fold_left (fun acc (ip : Z * Z) => if snd ip =? -1 then fst ip else acc) (combine (map Z.of_nat (seq s (length code))) (map snd code)) d
  = List.last (hits true (-1) (Z.of_nat s) code) d.
Proof.
  induction code as [|[nd p] code IH]; intros s d; [reflexivity|].
  cbn [length seq map combine fold_left fst snd hits orb]. rewrite IH, andb_true_r. replace (Z.of_nat s + 1) with (Z.of_nat (S s)) by lia.
  destruct (p =? -1); cbn [app]; [rewrite last_cons|]; reflexivity.
Qed.

Theorem dump_progG ev t : dump (progG ev t) = Some (fst (show t 0)).
Proof.
  change (progG ev t) with (PD (codeG ev t) (maxStack (compile t))). unfold dump.
  assert (Hroot : root_index (PD (codeG ev t) (maxStack (compile t))) = groot ev t 0).
  { unfold root_index. cbn [parents PD]. rewrite map_length, (root_index_hits _ 0 0). cbn [Z.of_nat].
    unfold codeG. rewrite (hits_out ev _ true (-1) (fun _ => eq_refl)) by (split; [left|]; lia). apply last_last. }
  rewrite Hroot, (dump_all ev (Z.of_nat (gsize ev t) - 1) (codeG ev t) (maxStack (compile t)) t 0 0 false [] fnone (groot ev t 0) (-1) None 0%nat).
  - destruct (show t 0). reflexivity.
  - split; [exists [], []; rewrite app_nil_r; split; reflexivity|intros x _; reflexivity].
  - left. lia.
  - cbn [nodes PD]. rewrite map_length. unfold codeG. rewrite compG_length. lia.
Qed.

Theorem dump_compile t : dump (compile t) = Some (fst (show t 0)).
Proof. rewrite compile_progG. apply dump_progG. Qed.

Print Assumptions dump_compile.

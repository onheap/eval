(* OpsList.v — `in` / `overlap` are membership / non-empty intersection (C17). *)
Require Import Base Tables Ops.
Open Scope Z_scope.

Lemma list_eqb_N_eq (a b : str) : str_eqb a b = true <-> a = b.
Proof.
  unfold str_eqb. revert b. induction a as [|x a IH]; intros [|y b]; cbn; split; intros H; try discriminate; try reflexivity.
  - apply andb_prop in H. destruct H as [H1 H2]. apply N.eqb_eq in H1. apply IH in H2. subst. reflexivity.
  - inversion H; subst. rewrite N.eqb_refl. apply IH. reflexivity.
Qed.

Lemma str_eqb_refl a : str_eqb a a = true.
Proof. apply list_eqb_N_eq. reflexivity. Qed.

Lemma str_eqb_sym a b : str_eqb a b = str_eqb b a.
Proof. apply eq_true_iff_eq. rewrite !list_eqb_N_eq. split; congruence. Qed.

Section Common.
  Context {A : Type} (f : A -> A -> bool) (f_eq : forall x y, f x y = true <-> x = y).

  Lemma existsb_eq_In x l : existsb (f x) l = true <-> In x l.
  Proof.
    rewrite existsb_exists. split.
    - intros [y [Hy He]]. apply f_eq in He. subst. exact Hy.
    - intros H. exists x. split; [exact H|apply f_eq; reflexivity].
  Qed.

  Lemma existsb2_common a b : existsb (fun i => existsb (f i) b) a = true <-> exists x, In x a /\ In x b.
  Proof.
    rewrite existsb_exists. split; intros [x [Ha Hb]]; exists x; (split; [exact Ha|apply existsb_eq_In, Hb]).
  Qed.
End Common.

Lemma mem_Z_In x l : mem_Z x l = true <-> In x l.
Proof. apply existsb_eq_In, Z.eqb_eq. Qed.

Lemma mem_str_In x l : mem_str x l = true <-> In x l.
Proof. apply existsb_eq_In, list_eqb_N_eq. Qed.

Lemma common_sym {A} (a b : list A) : (exists x, In x a /\ In x b) <-> exists x, In x b /\ In x a.
Proof. split; intros [x [H1 H2]]; exists x; split; assumption. Qed.

Section Ov.
  Context {A : Type} (eqb : A -> A -> bool) (eqb_eq : forall x y, eqb x y = true <-> x = y).

  Lemma ov_scan_spec a b : ov_scan eqb a b = true <-> exists x, In x a /\ In x b.
  Proof. exact (existsb2_common eqb eqb_eq a b). Qed.

  (* the same double loop, over the shorter list inside and with the test turned round *)
  Lemma ov_hash_spec a b : ov_hash eqb a b = true <-> exists x, In x a /\ In x b.
  Proof.
    assert (flip_eq : forall x y, eqb y x = true <-> x = y) by (intros x y; rewrite eqb_eq; split; intros H; symmetry; exact H).
    unfold ov_hash. destruct (length b <? length a)%nat; rewrite (existsb2_common (fun i s => eqb s i) flip_eq);
      [reflexivity|apply common_sym].
  Qed.

  Lemma ov_spec a b : ov eqb a b = true <-> exists x, In x a /\ In x b.
  Proof. unfold ov. destruct (lenZ a + lenZ b <? overlap_threshold); [apply ov_scan_spec|apply ov_hash_spec]. Qed.

  Lemma scan_eq_hash a b : ov_scan eqb a b = ov_hash eqb a b.
  Proof. apply eq_true_iff_eq. rewrite ov_scan_spec, ov_hash_spec. reflexivity. Qed.

  Lemma ov_sym a b : ov eqb a b = ov eqb b a.
  Proof. apply eq_true_iff_eq. rewrite !ov_spec. apply common_sym. Qed.
End Ov.

Definition is_list (v : value) : bool := match v with VIntL _ | VStrL _ => true | _ => false end.

Theorem overlap_symmetric p q : is_list p = true -> is_list q = true -> list_overlap [p; q] = list_overlap [q; p].
Proof.
  destruct p; try discriminate; destruct q; try discriminate; intros _ _; cbn [list_overlap].
  - rewrite (ov_sym Z.eqb Z.eqb_eq). reflexivity.
  - destruct l0; reflexivity.
  - destruct l; reflexivity.
  - rewrite (ov_sym str_eqb list_eqb_N_eq). reflexivity.
Qed.

(* the empty list literal is a string list; against a list of either element type it gives false, not a type error *)
Theorem overlap_empty_literal q : is_list q = true ->
  list_overlap [VStrL []; q] = Ok (VBool false) /\ list_overlap [q; VStrL []] = Ok (VBool false).
Proof.
  intros Hq. assert (H : list_overlap [VStrL []; q] = Ok (VBool false)).
  { destruct q; try discriminate; cbn [list_overlap]; [reflexivity|].
    replace (ov str_eqb [] l) with false; [reflexivity|]. symmetry. apply not_true_is_false. intros H.
    apply (ov_spec str_eqb list_eqb_N_eq) in H. destruct H as [x [[] _]]. }
  split; [exact H|]. rewrite <- overlap_symmetric; auto.
Qed.

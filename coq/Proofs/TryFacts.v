(* TryFacts.v — the Kleene combination `comb` of operand values that TryEval's executeOperatorProxy computes; the value
   `trysem` returns, as equations over `comb` with the effects left aside; and: on expressions whose sub-expressions do
   not fail, that value IS strong Kleene evaluation (C05). *)
Require Import Base Ops Tree OpsArith ListFacts SemFacts.
Open Scope Z_scope.
Open Scope list_scope.

(* a name cannot be both: the built-in table gives it one operator *)
Lemma and_or_disjoint name : is_and name = true -> is_or name = false.
Proof.
  intros Ha. destruct (is_or name) eqn:Ho; [|reflexivity].
  pose proof (is_and_builtin _ Ha) as E. rewrite (is_or_builtin _ Ho) in E. discriminate.
Qed.

Lemma tmatches_some d v : tmatches (Some d) v = true -> v = VBool d.
Proof. destruct d, v as [| [] | | | | | | | |]; cbn; congruence. Qed.
Lemma tmatches_none v : tmatches None v = true -> v = VDNE.
Proof. destruct v; cbn; congruence. Qed.
Lemma tmatches_bool d : tmatches (Some d) (VBool d) = true.
Proof. destruct d; reflexivity. Qed.

Lemma decider_bools d bs : existsb (tmatches (Some d)) (bools bs) = existsb (Bool.eqb d) bs.
Proof. induction bs as [|x l IH]; [reflexivity|]. cbn [bools map existsb]. fold (bools l). rewrite IH. destruct d, x; reflexivity. Qed.

Section T.
  Variable custom : str -> list value -> res value.

  Notation apply_op := (apply_op custom).

  Lemma boolop_result name d ps r : op_kind name = Some d -> apply_op name ps = Ok r ->
    r = VBool (if existsb (tmatches (Some d)) ps then d else negb d).
  Proof.
    intros Hk H. assert (Hb : exists bs, ps = bools bs /\ (2 <= length bs)%nat).
    { unfold Tree.apply_op in H. rewrite (kind_builtin _ _ Hk) in H. exact (logic_ok_inv _ _ _ H). }
    destruct Hb as (bs & -> & Hl). rewrite (boolop_apply custom name d bs Hk Hl) in H. inversion H.
    rewrite decider_bools. reflexivity.
  Qed.

  Definition comb (name : str) (vs : list value) : res value :=
    match op_kind name with
    | Some false => if existsb is_false vs then Ok (VBool false) else if existsb is_dne vs then Ok VDNE else apply_op name vs
    | Some true => if existsb is_true vs then Ok (VBool true) else if existsb is_dne vs then Ok VDNE else apply_op name vs
    | None => if existsb is_dne vs then Ok VDNE else apply_op name vs
    end.

  Lemma comb_some name d vs : op_kind name = Some d ->
    comb name vs = if existsb (tmatches (Some d)) vs then Ok (VBool d)
                   else if existsb is_dne vs then Ok VDNE else apply_op name vs.
  Proof. intros Hk. unfold comb. rewrite Hk. destruct d; reflexivity. Qed.
  Lemma comb_none name vs : op_kind name = None ->
    comb name vs = if existsb is_dne vs then Ok VDNE else apply_op name vs.
  Proof. intros Hk. unfold comb. rewrite Hk. reflexivity. Qed.

  Lemma proxy_comb name fast args : snd (proxy custom name fast args) = comb name args.
  Proof.
    unfold proxy, comb, op_kind. destruct (is_and name) eqn:Ha; [rewrite (and_or_disjoint _ Ha)|destruct (is_or name)]; cbn [andb].
    - destruct (existsb is_false args); [reflexivity|]. destruct (existsb is_dne args); reflexivity.
    - destruct (existsb is_true args); [reflexivity|]. destruct (existsb is_dne args); reflexivity.
    - destruct (existsb is_dne args); reflexivity.
  Qed.

  Lemma comb_apply name vs r : existsb is_dne vs = false -> apply_op name vs = Ok r -> comb name vs = Ok r.
  Proof.
    intros Hd H. destruct (op_kind name) as [d|] eqn:Hk; [|rewrite (comb_none _ _ Hk), Hd; exact H].
    rewrite (comb_some _ _ _ Hk), Hd. pose proof (boolop_result name d vs r Hk H) as Hr.
    destruct (existsb (tmatches (Some d)) vs); [rewrite Hr; reflexivity|exact H].
  Qed.

  Lemma comb_dne name vs : existsb is_dne vs = true ->
    comb name vs = Ok VDNE \/ exists d, op_kind name = Some d /\ comb name vs = Ok (VBool d).
  Proof.
    intros H. destruct (op_kind name) as [d|] eqn:Hk; [|rewrite (comb_none _ _ Hk), H; auto].
    rewrite (comb_some _ _ _ Hk), H. destruct (existsb (tmatches (Some d)) vs); eauto.
  Qed.

  (* an operand at which TryEval stops is the combination of all operands, whatever the others are *)
  Lemma stopper_comb name v pre post : tmatches (op_kind name) v = true -> comb name (pre ++ v :: post) = Ok v.
  Proof.
    intros Hv. destruct (op_kind name) as [d|] eqn:Hk.
    - rewrite (comb_some _ _ _ Hk), existsb_app. cbn [existsb]. rewrite Hv, orb_true_r. rewrite (tmatches_some _ _ Hv). reflexivity.
    - rewrite (comb_none _ _ Hk), existsb_app. cbn [existsb]. rewrite (tmatches_none _ Hv), orb_true_r. reflexivity.
  Qed.

  Variable fetch : str -> Z -> res value.
  Variable cached : str -> Z -> bool.

  Notation trysem := (trysem fetch custom cached).
  Notation trysem_args := (trysem_args fetch custom cached).
  Notation kleene := (kleene fetch custom cached).

  Lemma trysem_op name fast cs : fast_shape fast cs = false ->
    trysem (TOp name fast cs) = trysem_args name cs [].
  Proof.
    intros Hf. cbn [Tree.trysem]. rewrite Hf.
    assert (E : forall acc,
      (fix args (cs0 : list tree) (acc : list value) {struct cs0} : list effect * res value :=
         match cs0 with
         | [] => proxy custom name false (rev acc)
         | c :: cs' =>
           match trysem c with
           | (tr, Ok v) => if tmatches (op_kind name) v then (tr, Ok v) else preR tr (args cs' (v :: acc))
           | (tr, Err e) => (tr, Err e)
           end
         end) cs acc = trysem_args name cs acc).
    { clear Hf. induction cs as [|c cs IH]; intros acc; cbn [Tree.trysem_args]; [reflexivity|].
      destruct (trysem c) as [tr [v|e]]; [|reflexivity]. destruct (tmatches _ v); [reflexivity|]. rewrite IH. reflexivity. }
    destruct cs as [|a [|b [|c cs']]]; apply E.
  Qed.

  Lemma try_args_nil name acc : snd (trysem_args name [] acc) = comb name (rev acc).
  Proof. apply proxy_comb. Qed.

  Lemma try_args_cons name c cs acc : snd (trysem_args name (c :: cs) acc) =
    bind (snd (trysem c)) (fun v => if tmatches (op_kind name) v then Ok v else snd (trysem_args name cs (v :: acc))).
  Proof. cbn [Tree.trysem_args]. destruct (trysem c) as [tr [v|e]]; [|reflexivity]. cbn [snd bind]. destruct (tmatches _ v); reflexivity. Qed.

  Lemma try_if c t f : snd (trysem (TIf c t f)) =
    bind (snd (trysem c)) (fun vc => match vc with VDNE => Ok VDNE | VBool true => snd (trysem t) | VBool false => snd (trysem f) | _ => Err ECondNotBool end).
  Proof. cbn [Tree.trysem]. destruct (trysem c) as [tr [[| [] | | | | | | | |]|e]]; reflexivity. Qed.

  Lemma try_fast name a b : fast_shape true [a; b] = true ->
    snd (trysem (TOp name true [a; b])) =
    bind (snd (tleaf_val fetch cached a)) (fun va => bind (snd (tleaf_val fetch cached b)) (fun vb => comb name [va; vb])).
  Proof.
    intros Hf. cbn [Tree.trysem]. rewrite Hf. destruct (tleaf_val fetch cached a) as [tr1 [va|e1]]; [|reflexivity].
    destruct (tleaf_val fetch cached b) as [tr2 [vb|e2]]; [|reflexivity]. apply proxy_comb.
  Qed.

  Lemma kleene_op name fast cs : kleene (TOp name fast cs) = bind (all_ok (map kleene cs)) (comb name).
  Proof. cbn [Tree.kleene]. unfold comb. destruct (all_ok (map kleene cs)); [|reflexivity]. cbn [bind]. destruct (op_kind name) as [[]|]; reflexivity. Qed.

  Fixpoint subs_ok (t : tree) : Prop :=
    match t with
    | TConst _ | TVar _ _ => True
    | TOp _ _ cs => (fix all (l : list tree) : Prop :=
                       match l with [] => True | c :: l' => (subs_ok c /\ exists v, kleene c = Ok v) /\ all l' end) cs
    | TIf c t f => subs_ok c /\ subs_ok t /\ subs_ok f
    end.

  Lemma subs_ok_op name fast cs : subs_ok (TOp name fast cs) <-> Forall (fun c => subs_ok c /\ exists v, kleene c = Ok v) cs.
  Proof. apply (all_Forall (fun c => subs_ok c /\ exists v, kleene c = Ok v)). Qed.

  Lemma args_kleene name cs : Forall (fun c => subs_ok c -> snd (trysem c) = kleene c) cs ->
    Forall (fun c => subs_ok c /\ exists v, kleene c = Ok v) cs ->
    exists vs, all_ok (map kleene cs) = Ok vs /\ forall acc, snd (trysem_args name cs acc) = comb name (rev acc ++ vs).
  Proof.
    induction 1 as [|c cs Hc _ IH]; inversion 1 as [|? ? [Hs [v Hv]] Hcs]; subst.
    - exists []. split; [reflexivity|]. intros acc. rewrite app_nil_r. apply try_args_nil.
    - destruct (IH Hcs) as (vs & E & Hvs). exists (v :: vs). split; [cbn [map all_ok]; rewrite Hv, E; reflexivity|].
      intros acc. rewrite try_args_cons, (Hc Hs), Hv. cbn [bind].
      destruct (tmatches (op_kind name) v) eqn:Hm; [symmetry; apply stopper_comb, Hm|].
      rewrite Hvs. cbn [rev]. rewrite <- app_assoc. reflexivity.
  Qed.

  Lemma tleaf_kleene t : is_leaf t = true -> snd (tleaf_val fetch cached t) = kleene t.
  Proof. destruct t; try discriminate; intros _; cbn; [reflexivity|]. destruct (cached name key); reflexivity. Qed.

  Theorem trysem_is_kleene : forall t, subs_ok t -> snd (trysem t) = kleene t.
  Proof.
    induction t as [v|n k|name fast cs IH|c t f IHc IHt IHf] using tree_ind2; intros Hs.
    - reflexivity.
    - cbn. destruct (cached n k); reflexivity.
    - apply subs_ok_op in Hs. rewrite kleene_op. destruct (fast_shape fast cs) eqn:Hfs.
      + destruct (fast_shape_inv _ _ Hfs) as (a & b & -> & Ha & Hb & ->).
        rewrite (try_fast _ _ _ Hfs), (tleaf_kleene a Ha), (tleaf_kleene b Hb).
        cbn [map all_ok]. destruct (kleene a); [|reflexivity]. destruct (kleene b); reflexivity.
      + rewrite trysem_op by exact Hfs. destruct (args_kleene name cs IH Hs) as (vs & E & Hvs). rewrite E. apply (Hvs []).
    - destruct Hs as (Hc & Ht & Hf). rewrite try_if, (IHc Hc), (IHt Ht), (IHf Hf). reflexivity.
  Qed.
End T.

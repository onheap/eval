(* InfixProofs.v — C15: the shunting-yard parser (parseInfixExpression: operator stack with recorded output heights,
   left-associative reduction by precedence, calls, unary not, parentheses) builds, from the infix rendering of an
   expression, the tree its prefix form denotes. Redundant parentheses do not change the tree. *)
Require Import Base Tables Tree Lexer Parser ListFacts.
From Coq Require Import ZifyBool.
Open Scope Z_scope.
Open Scope list_scope.

Inductive iexp :=
  | IAtom (ts : list tok) (t : tree)       (* a leaf: literal, variable, constant, [..] list *)
  | IParen (e : iexp)                      (* ( e ) — needed or redundant *)
  | INot (e : iexp)                        (* ! e *)
  | IBin (op : str) (l r : iexp)           (* l op r *)
  | ICall (f : str) (args : list iexp).    (* f(a, b, ...), if(c, a, b) *)

Section iexp_ind2.
  Variable P : iexp -> Prop.
  Hypothesis HA : forall ts t, P (IAtom ts t).
  Hypothesis HP : forall e, P e -> P (IParen e).
  Hypothesis HN : forall e, P e -> P (INot e).
  Hypothesis HB : forall op l r, P l -> P r -> P (IBin op l r).
  Hypothesis HC : forall f args, Forall P args -> P (ICall f args).
  Fixpoint iexp_ind2 (e : iexp) : P e :=
    match e with
    | IAtom ts t => HA ts t
    | IParen e => HP e (iexp_ind2 e)
    | INot e => HN e (iexp_ind2 e)
    | IBin op l r => HB op l r (iexp_ind2 l) (iexp_ind2 r)
    | ICall f args => HC f args ((fix F (l : list iexp) : Forall P l :=
        match l with [] => Forall_nil _ | c :: l' => Forall_cons _ (iexp_ind2 c) (F l') end) args)
    end.
End iexp_ind2.

Definition bang : str := ss "!".

Fixpoint itoks (e : iexp) : list tok :=
  match e with
  | IAtom ts _ => ts
  | IParen e => KLParen :: itoks e ++ [KRParen]
  | INot e => KIdent bang :: itoks e
  | IBin op l r => itoks l ++ KIdent op :: itoks r
  | ICall f args =>
    KIdent f :: KLParen ::
      (fix sep (l : list iexp) : list tok :=
         match l with [] => [] | [a] => itoks a | a :: l' => itoks a ++ KComma :: sep l' end) args ++ [KRParen]
  end.

Fixpoint isep (l : list iexp) : list tok :=
  match l with [] => [] | [a] => itoks a | a :: l' => itoks a ++ KComma :: isep l' end.

Lemma itoks_call f args : itoks (ICall f args) = KIdent f :: KLParen :: isep args ++ [KRParen].
Proof. reflexivity. Qed.

(* binding strength of the outermost construct, on the scale of the regenerated `infix_table`: binary operators from 3 (`||`)
   to 8 (`*`), `!` 6, `,` 2, parentheses 1; 99 is any level above 8 and below `func_precedence` = 100, which marks a call *)
Definition ilevel (e : iexp) : Z :=
  match e with
  | IAtom _ _ | IParen _ | ICall _ _ => 99
  | INot _ => prec bang
  | IBin op _ _ => prec op
  end.

Section C.
  Variable c : pconf.

  (* `build_parent` made total: every use comes with `build_parent ... <> None` (`parent_some`), the default is never seen *)
  Definition parent (name : str) (children : list tree) : tree :=
    match build_parent c name children with Some t => t | None => TConst VNil end.

  Fixpoint itree (e : iexp) : tree :=
    match e with
    | IAtom _ t => t
    | IParen e => itree e
    | INot e => parent bang [itree e]
    | IBin op l r => parent op [itree l; itree r]
    | ICall f args => parent f (map itree args)
    end.

  Definition not_leaf (s : str) : Prop := forall rest, leaf c true (KIdent s :: rest) = LNone.

  (* `3 <= prec op <= 8`: a binary operator of the table. `!` at level 6 binds looser than `+` and `*`: `! a + b` is
     `INot (IBin + a b)`, and `a * !b` is no well-formed iexp (the parser rejects that text; `a * (!b)` is one) *)
  Fixpoint iwf (e : iexp) : Prop :=
    match e with
    | IAtom ts t => ts <> [] /\ forall rest, leaf c true (ts ++ rest) = LOk t rest
    | IParen e => iwf e
    | INot e => iwf e /\ prec bang < ilevel e /\ not_leaf bang /\ build_parent c bang [itree e] <> None
    | IBin op l r =>
      iwf l /\ iwf r /\ arity op = 2 /\ 3 <= prec op <= 8 /\ prec op <= ilevel l /\ prec op < ilevel r /\
      not_leaf op /\ build_parent c op [itree l; itree r] <> None
    | ICall f args =>
      (fix all (l : list iexp) : Prop := match l with [] => True | a :: l' => iwf a /\ all l' end) args /\
      infix_info f = infix_default /\ not_leaf f /\ build_parent c f (map itree args) <> None
    end.

  Lemma iwf_call f args : iwf (ICall f args) <->
    Forall iwf args /\ infix_info f = infix_default /\ not_leaf f /\ build_parent c f (map itree args) <> None.
  Proof.
    cbn [iwf]. rewrite (all_Forall iwf). tauto.
  Qed.

  Lemma parent_some name cs : build_parent c name cs <> None -> build_parent c name cs = Some (parent name cs).
  Proof. unfold parent. destruct (build_parent c name cs); [reflexivity|congruence]. Qed.

  Lemma ilevel_ge e : iwf e -> 3 <= ilevel e.
  Proof. destruct e; cbn [ilevel iwf]; intros H; [discriminate..|tauto|discriminate]. Qed.

  (* buildTopOperators without fuel. A `)` meets its `(`: *)
  Definition closes (car : option tok) (top : tok) : bool :=
    match top, car with KLParen, Some KRParen => true | _, _ => false end.

  Lemma closes_match {A} car top (a b : A) :
    match car, top with Some KRParen, KLParen => a | _, _ => b end = if closes car top then a else b.
  Proof. destruct car as [[]|]; try reflexivity; destruct top; reflexivity. Qed.

  Definition reduce (top : tok) (l : Z) (out : list tree) : option (list tree) :=
    let cnt := let a := arity (tok_val (Some top)) in if a =? -1 then lenZ out - l else a in
    if (cnt <? 0) || (lenZ out <? cnt) then None else
    match build_parent c (tok_val (Some top)) (rev (firstn (Z.to_nat cnt) out)) with
    | None => None
    | Some t => Some (t :: skipn (Z.to_nat cnt) out)
    end.

  Fixpoint bt (car : option tok) (ops : list (tok * Z)) (out : list tree) : option (list (tok * Z) * list tree) :=
    match ops with
    | [] => Some ([], out)
    | (top, l) :: ops' =>
      if closes car top then Some (ops', out) else
      if stays car (Some top) then Some (ops, out) else
      match reduce top l out with None => None | Some out' => bt car ops' out' end
    end.

  Lemma build_top_bt : forall fuel car ops out, (length ops < fuel)%nat -> build_top c fuel car ops out = bt car ops out.
  Proof.
    induction fuel as [|f IH]; intros car ops out Hf; [inversion Hf|].
    destruct ops as [|[top l] ops']; [reflexivity|]. cbn [build_top bt]. rewrite closes_match.
    destruct (closes car top); [reflexivity|]. destruct (stays car (Some top)); [reflexivity|].
    unfold reduce. cbv zeta. destruct (_ || _); [reflexivity|].
    destruct (build_parent _ _ _); [|reflexivity]. apply IH, Nat.succ_lt_mono, Hf.
  Qed.

  Definition Runs (ts : list tok) (ops : list (tok * Z)) (out : list tree) (r : option tree) : Prop :=
    forall f, (length ts < f)%nat -> infix_loop c f ts ops out = r.

  Lemma runs_leaf a t rest ops out r : a <> [] -> leaf c true (a ++ rest) = LOk t rest ->
    Runs rest ops (t :: out) r -> Runs (a ++ rest) ops out r.
  Proof.
    intros Ha Hl HR f Hf. destruct f as [|f]; [inversion Hf|]. destruct a as [|x a]; [congruence|]. cbn [app infix_loop] in *.
    rewrite Hl. apply HR. cbn [length] in Hf. rewrite app_length in Hf. lia.
  Qed.

  Lemma runs_ident s rest ops out ops' out' r : not_leaf s -> bt (Some (KIdent s)) ops out = Some (ops', out') ->
    Runs rest ((KIdent s, lenZ out') :: ops') out' r -> Runs (KIdent s :: rest) ops out r.
  Proof.
    intros Hl Hb HR f Hf. destruct f as [|f]; [inversion Hf|]. cbn [infix_loop].
    rewrite Hl, build_top_bt, Hb by apply Nat.lt_succ_diag_r. apply HR, Nat.succ_lt_mono, Hf.
  Qed.

  Lemma leaf_delim t rest : t = KLParen \/ t = KRParen \/ t = KComma -> leaf c true (t :: rest) = LNone.
  Proof. intros [-> | [-> | ->]]; destruct rest; reflexivity. Qed.

  Lemma runs_lparen rest ops out r : Runs rest ((KLParen, lenZ out) :: ops) out r -> Runs (KLParen :: rest) ops out r.
  Proof.
    intros HR f Hf. destruct f as [|f]; [inversion Hf|]. cbn [infix_loop]. rewrite leaf_delim by auto. apply HR, Nat.succ_lt_mono, Hf.
  Qed.

  Lemma runs_close t rest ops out ops' out' r : t = KRParen \/ t = KComma -> bt (Some t) ops out = Some (ops', out') ->
    Runs rest ops' out' r -> Runs (t :: rest) ops out r.
  Proof.
    intros Ht Hb HR f Hf. destruct f as [|f]; [inversion Hf|]. cbn [infix_loop].
    rewrite leaf_delim by tauto. destruct Ht as [-> | ->]; rewrite build_top_bt, Hb by apply Nat.lt_succ_diag_r; apply HR, Nat.succ_lt_mono, Hf.
  Qed.

  Lemma runs_end ops out t : bt None ops out = Some ([], [t]) -> Runs [] ops out (Some t).
  Proof. intros Hb f Hf. destruct f as [|f]; [inversion Hf|]. cbn [infix_loop]. rewrite build_top_bt, Hb by apply Nat.lt_succ_diag_r. reflexivity. Qed.

  (* the level of the token `build_top` is called for; at the end of the input (`None`) it is -1 *)
  Definition cprec (car : option tok) : Z := prec (tok_val car).

  (* operators pe and operands oe, pushed on a stack whose output has height h, are reduced to the one operand t by
     any later token that binds no tighter than lvl *)
  Definition Pend (lvl : Z) (t : tree) (pe : list (tok * Z)) (oe : list tree) (h : Z) : Prop :=
    forall car ops out, lenZ out = h -> cprec car <= lvl -> bt car (pe ++ ops) (oe ++ out) = bt car ops (t :: out).

  Lemma pend_done lvl t h : Pend lvl t [] [t] h.
  Proof. intros car ops out _ _. reflexivity. Qed.

  (* what was pushed last is reduced first *)
  Lemma pend_trans lvl1 t1 pe1 oe1 h1 lvl2 t2 pe2 mid h :
    Pend lvl1 t1 pe1 oe1 h1 -> h1 = h + lenZ mid -> lvl2 <= lvl1 -> Pend lvl2 t2 pe2 (t1 :: mid) h ->
    Pend lvl2 t2 (pe1 ++ pe2) (oe1 ++ mid) h.
  Proof.
    intros H1 -> Hl H2 car ops out Hh Hc. rewrite <- !app_assoc, H1; [apply H2; assumption|rewrite lenZ_app|]; lia.
  Qed.

  (* an operator with its operands on the output: recorded height l for a call, fixed arity otherwise *)
  Lemma reduce_kids name l kids out :
    (if arity name =? -1 then l = lenZ out else arity name = lenZ kids) -> build_parent c name kids <> None ->
    reduce (KIdent name) l (rev kids ++ out) = Some (parent name kids :: out).
  Proof.
    intros Hc Hb. unfold reduce. cbn [tok_val]. cbv zeta.
    assert (Hr : lenZ (rev kids) = lenZ kids) by (unfold lenZ; rewrite rev_length; reflexivity).
    assert (E : (if arity name =? -1 then lenZ (rev kids ++ out) - l else arity name) = lenZ kids).
    { destruct (arity name =? -1); [subst l; rewrite lenZ_app, Hr; apply Z.add_simpl_r|exact Hc]. }
    rewrite E, lenZ_app, Hr. pose proof (lenZ_nonneg kids). pose proof (lenZ_nonneg out).
    replace ((_ <? 0) || _) with false by lia.
    unfold lenZ. rewrite Nat2Z.id, <- (rev_length kids). destruct (firstn_skipn_app (rev kids) out) as [-> ->].
    rewrite rev_involutive, (parent_some _ _ Hb). reflexivity.
  Qed.

  (* a token that binds no tighter than the operator on top, and is not the name of a call, reduces it *)
  Lemma pend_op name l kids h lvl : lvl <= prec name -> lvl < func_precedence ->
    (if arity name =? -1 then l = h else arity name = lenZ kids) -> build_parent c name kids <> None ->
    Pend lvl (parent name kids) [(KIdent name, l)] (rev kids) h.
  Proof.
    intros Hl Hf Hc Hb car ops out <- Hc1. cbn [app bt closes]. rewrite (reduce_kids _ _ _ _ Hc Hb).
    unfold stays, cprec in *. cbn [tok_val]. replace (_ =? func_precedence) with false by lia. replace (0 <? _) with false by lia. reflexivity.
  Qed.

  Definition low (ops : list (tok * Z)) (lvl : Z) : Prop :=
    match ops with [] => True | (top, _) :: _ => prec (tok_val (Some top)) < lvl end.

  Lemma bt_stays car ops out lvl : low ops lvl -> lvl <= cprec car -> car <> Some KRParen -> bt car ops out = Some (ops, out).
  Proof.
    intros Hl Hc Hr. destruct ops as [|[top l] ops']; [reflexivity|]. cbn [bt].
    replace (closes car top) with false by (destruct top; try reflexivity; destruct car as [[]|]; try reflexivity; congruence).
    unfold low, stays, cprec in *. destruct (_ =? func_precedence); [reflexivity|].
    replace (0 <? _) with true by lia. reflexivity.
  Qed.

  (* reading e on top of stacks whose operator binds looser than e: whatever the loop does with the rest of the input
     afterwards, it does when it starts in front of e *)
  Definition reads (e : iexp) : Prop :=
    iwf e -> forall rest ops out, low ops (ilevel e) ->
      exists pe oe, Pend (ilevel e) (itree e) pe oe (lenZ out) /\
        forall r, Runs rest (pe ++ ops) (oe ++ out) r -> Runs (itoks e ++ rest) ops out r.

  Lemma reads_atom ts t : reads (IAtom ts t).
  Proof.
    intros [Hn Hl] rest ops out _. exists [], [t]. split; [apply pend_done|]. intros r HR. apply (runs_leaf ts t); [exact Hn|apply Hl|exact HR].
  Qed.

  Lemma prec_paren : prec (ss "(") = 1 /\ prec (ss ")") = 1 /\ prec (ss ",") = 2 /\ prec [] = -1.
  Proof. repeat split; reflexivity. Qed.

  (* e inside parentheses, up to the `,` or `)` that ends it: its tree is on the output, and a `)` has taken its `(` *)
  Lemma reads_closed e t h rest ops out r : iwf e -> reads e -> t = KRParen \/ t = KComma ->
    Runs rest (if is_rparen t then ops else (KLParen, h) :: ops) (itree e :: out) r ->
    Runs (itoks e ++ t :: rest) ((KLParen, h) :: ops) out r.
  Proof.
    intros Hw IH Ht HR. pose proof (ilevel_ge e Hw) as Hge. destruct prec_paren as (P1 & P2 & P3 & _).
    destruct (IH Hw (t :: rest) ((KLParen, h) :: ops) out) as (pe & oe & HP & HR'); [unfold low; cbn [tok_val]; lia|].
    apply HR'. eapply (runs_close t); [exact Ht| |exact HR].
    rewrite (HP (Some t) _ out eq_refl) by (destruct Ht as [-> | ->]; unfold cprec; cbn [tok_val]; lia).
    destruct Ht as [-> | ->]; reflexivity.
  Qed.

  Lemma reads_paren e : reads e -> reads (IParen e).
  Proof.
    intros IH Hw rest ops out _. exists [], [itree e]. split; [apply pend_done|]. intros r HR.
    cbn [itoks app]. rewrite <- app_assoc. apply runs_lparen, (reads_closed e KRParen); auto.
  Qed.

  Lemma reads_not e : reads e -> reads (INot e).
  Proof.
    intros IH (Hw & Hlv & Hnl & Hb) rest ops out Hlow. cbn [itoks ilevel itree app] in *.
    destruct (IH Hw rest ((KIdent bang, lenZ out) :: ops) out Hlv) as (pe & oe & HP & HR').
    exists (pe ++ [(KIdent bang, lenZ out)]), (oe ++ []). split.
    - apply (pend_trans _ _ _ _ _ _ _ _ _ _ HP); [symmetry; apply Z.add_0_r|lia|].
      apply (pend_op bang _ [itree e]); [lia|reflexivity..|exact Hb].
    - intros r HR. rewrite <- !app_assoc in HR. apply (runs_ident bang _ _ _ ops out), HR', HR; [exact Hnl|].
      apply (bt_stays _ _ _ _ Hlow); [reflexivity|discriminate].
  Qed.

  Lemma low_le ops a b : low ops a -> a <= b -> low ops b.
  Proof. destruct ops as [|[top l] ops']; [trivial|]. unfold low. lia. Qed.

  Lemma reads_bin op l r : reads l -> reads r -> reads (IBin op l r).
  Proof.
    intros IHl IHr (Hwl & Hwr & Har & Hp & Hll & Hlr & Hnl & Hb) rest ops out Hlow. cbn [itoks ilevel itree] in *.
    destruct (IHl Hwl (KIdent op :: itoks r ++ rest) ops out (low_le _ _ _ Hlow Hll)) as (pl & ol & HPl & HRl).
    destruct (IHr Hwr rest ((KIdent op, lenZ (itree l :: out)) :: ops) (itree l :: out) Hlr) as (pr & or & HPr & HRr).
    exists (pr ++ [(KIdent op, lenZ (itree l :: out))]), (or ++ [itree l]). split.
    - apply (pend_trans _ _ _ _ _ _ _ _ _ _ HPr); [apply lenZ_cons|lia|].
      apply (pend_op op _ [itree l; itree r]); [lia|unfold func_precedence; lia|rewrite Har; reflexivity|exact Hb].
    - intros r0 HR. rewrite <- !app_assoc in *. apply HRl, (runs_ident op _ _ _ ops (itree l :: out)), HRr, HR; [exact Hnl|].
      rewrite (HPl (Some (KIdent op)) ops out eq_refl) by (unfold cprec; cbn [tok_val]; lia).
      apply (bt_stays _ _ _ _ Hlow); [reflexivity|discriminate].
  Qed.

  (* the operands of a call after its `(`, each closed by `,` or by the `)` of the call *)
  Lemma reads_args h : forall args, Forall iwf args -> Forall reads args ->
    forall rest ops out r, Runs rest ops (rev (map itree args) ++ out) r ->
      Runs (isep args ++ KRParen :: rest) ((KLParen, h) :: ops) out r.
  Proof.
    intros args Hw HR. induction HR as [|a args Ha _ IH]; intros rest ops out r H.
    - apply (runs_close KRParen _ _ _ ops out); auto.
    - inversion Hw as [|? ? Hwa Hwargs]; subst. destruct args as [|b args'].
      + apply (reads_closed a KRParen); auto.
      + change (isep (a :: b :: args')) with (itoks a ++ KComma :: isep (b :: args')). rewrite <- app_assoc.
        apply (reads_closed a KComma), (IH Hwargs); auto.
        change (rev (map itree (a :: b :: args'))) with (rev (map itree (b :: args')) ++ [itree a]) in H. rewrite <- app_assoc in H. exact H.
  Qed.

  Lemma reads_call fname args : Forall reads args -> reads (ICall fname args).
  Proof.
    intros HR Hw rest ops out Hlow. apply iwf_call in Hw. destruct Hw as (Hwa & Hinfo & Hnl & Hb).
    assert (Hprec : prec fname = func_precedence /\ arity fname = -1) by (unfold prec, arity; rewrite Hinfo; split; reflexivity).
    destruct Hprec as [Pf Af]. exists [(KIdent fname, lenZ out)], (rev (map itree args)). split.
    - apply pend_op; [rewrite Pf; discriminate|reflexivity|rewrite Af; reflexivity|exact Hb].
    - intros r H. rewrite itoks_call. cbn [app]. rewrite <- app_assoc.
      apply (runs_ident fname _ _ _ ops out), runs_lparen, reads_args, H; try assumption.
      apply (bt_stays _ _ _ _ Hlow); [unfold cprec; cbn [tok_val]; rewrite Pf|]; discriminate.
  Qed.

  Theorem reads_all : forall e, reads e.
  Proof.
    induction e as [ts t|e IH|e IH|op l r IHl IHr|fname args IH] using iexp_ind2.
    - apply reads_atom.
    - apply reads_paren, IH.
    - apply reads_not, IH.
    - apply reads_bin; assumption.
    - apply reads_call, IH.
  Qed.

  Theorem parse_infix_correct e : iwf e -> parse_infix c (itoks e) = Some (itree e).
  Proof.
    intros Hw. pose proof (ilevel_ge e Hw). destruct prec_paren as (_ & _ & _ & P4).
    destruct (reads_all e Hw [] [] [] I) as (pe & oe & HP & HR). rewrite (app_nil_r (itoks e)) in HR.
    apply HR; [|apply Nat.lt_succ_diag_r]. apply runs_end.
    rewrite (HP None [] [] eq_refl) by (unfold cprec; cbn [tok_val]; lia). reflexivity.
  Qed.

  Fixpoint strip_parens (e : iexp) : iexp :=
    match e with
    | IAtom ts t => IAtom ts t
    | IParen e => strip_parens e
    | INot e => INot (strip_parens e)
    | IBin op l r => IBin op (strip_parens l) (strip_parens r)
    | ICall f args => ICall f (map strip_parens args)
    end.

  Lemma itree_strip : forall e, itree (strip_parens e) = itree e.
  Proof.
    induction e as [ts t|e IH|e IH|op l r IHl IHr|fname args IH] using iexp_ind2; cbn [strip_parens itree]; try congruence.
    f_equal. rewrite map_map. apply map_ext_Forall, IH.
  Qed.

  Corollary parens_irrelevant e1 e2 : iwf e1 -> iwf e2 -> strip_parens e1 = strip_parens e2 ->
    parse_infix c (itoks e1) = parse_infix c (itoks e2).
  Proof.
    intros H1 H2 E. rewrite !parse_infix_correct by assumption. rewrite <- (itree_strip e1), <- (itree_strip e2), E. reflexivity.
  Qed.
End C.

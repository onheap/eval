(* TryCorrectE.v — C12, TryEval: the model of Expr.TryEval run on the event-mode program computes `trysem`, LOOP events
   being the only additional observations, and their positions increase; hence ReportEvent/Debug never change the
   result of TryEval. *)
Require Import Base Tree Flat FlatE Run EvalTop EvalCorrectE LoopOrder TryCorrect.
Open Scope Z_scope.
Open Scope list_scope.

Theorem tryrun_compileE_seen fetch custom cached t :
  seenE 0 (tryeval fetch custom cached (compileE t)) (sem_obs (trysem fetch custom cached t)).
Proof.
  rewrite compileE_progG. apply (tryrun_progG_correct fetch custom cached true seenE t describes_seenE).
Qed.

Theorem tryrun_compileE_correct fetch custom cached t :
  dl (tryeval fetch custom cached (compileE t)) = sem_obs (trysem fetch custom cached t).
Proof. apply tryrun_compileE_seen. Qed.

Corollary try_events_transparent fetch custom cached t :
  dl (tryeval fetch custom cached (compileE t)) = tryeval fetch custom cached (compile t).
Proof. rewrite tryrun_compileE_correct, tryrun_compile_correct. reflexivity. Qed.

Theorem try_loops_increasing fetch custom cached t :
  incr_from 0 (loops (fst (tryeval fetch custom cached (compileE t)))) = true.
Proof. apply tryrun_compileE_seen. Qed.

Print Assumptions tryrun_compileE_correct.
Print Assumptions try_loops_increasing.

(* OptValue.v — C02, third clause: with Reordering off, every configuration returns the unoptimised value whenever
   plain left-to-right short-circuit evaluation succeeds. Each of the three order-preserving passes (constant folding,
   nesting reduction, fast marking) preserves a successful value of `sem`. *)
Require Import Base Tree Opt SemFacts Pass Fold OptSound ListFacts.
Open Scope Z_scope.
Open Scope list_scope.

Section V.
  Variable fetch : str -> Z -> res value.
  Variable custom : str -> list value -> res value.
  Notation sem := (sem fetch custom).
  Notation sem_args := (sem_args fetch custom).
  Notation apply_op := (apply_op custom).

  Definition val (t : tree) : res value := snd (sem t).
  Definition vargs (name : str) (cs : list tree) (acc : list value) : res value := snd (sem_args name cs acc).

  Definition lastflag (c : tree) (cs' : list tree) (acc : list value) : bool :=
    match cs' with [] => can_be_last c && (2 <=? lenZ (c :: cs') + lenZ acc) | _ => false end.

  Lemma vargs_nil name acc : vargs name [] acc = apply_op name (rev acc).
  Proof. reflexivity. Qed.

  Lemma vargs_cons name c cs' acc : vargs name (c :: cs') acc =
    match val c with
    | Ok v => if operand_result (op_kind name) (lastflag c cs' acc) v then Ok v else vargs name cs' (v :: acc)
    | Err e => Err e
    end.
  Proof.
    unfold vargs, val. cbn [Tree.sem_args]. destruct (sem c) as [tr [v|e]]; [|reflexivity]. cbv zeta. cbn [snd].
    unfold lastflag. destruct (operand_result _ _ v); reflexivity.
  Qed.

  Lemma val_op name fast cs : fast_shape fast cs = false -> val (TOp name fast cs) = vargs name cs [].
  Proof. intros H. unfold val, vargs. rewrite (sem_op fetch custom name fast cs H). reflexivity. Qed.

  Lemma val_if c t f : val (TIf c t f) =
    match val c with
    | Ok (VBool true) => val t
    | Ok (VBool false) => val f
    | Ok _ => Err ECondNotBool
    | Err e => Err e
    end.
  Proof.
    unfold val. cbn [Tree.sem]. destruct (sem c) as [tr [v|e]]; [|reflexivity].
    destruct v as [z|[]|s|li|ls|si|ss'| | |o]; reflexivity.
  Qed.

  Lemma val_const v : val (TConst v) = Ok v. Proof. reflexivity. Qed.

  Lemma val_fast name a b : fast_shape true [a; b] = true ->
    val (TOp name true [a; b]) = match val a with Ok va => match val b with Ok vb => apply_op name [va; vb] | Err e => Err e end | Err e => Err e end.
  Proof. exact (sem_val_fast fetch custom name a b). Qed.

  Definition keeps (c c' : tree) : Prop := can_be_last c = can_be_last c' /\ forall v, val c = Ok v -> val c' = Ok v.

  Lemma vargs_keeps name : forall cs cs', Forall2 keeps cs cs' -> forall acc v,
    vargs name cs acc = Ok v -> vargs name cs' acc = Ok v.
  Proof.
    induction 1 as [|c c' cs cs' [Hl Hk] HF IH]; intros acc v H; [exact H|].
    rewrite vargs_cons in *. destruct (val c) as [v0|e] eqn:Ec; [|discriminate]. rewrite (Hk v0 eq_refl).
    replace (lastflag c' cs' acc) with (lastflag c cs acc); [destruct (operand_result _ _ v0); auto|].
    unfold lastflag, lenZ. cbn [length]. rewrite Hl. inversion HF; reflexivity.
  Qed.

  Lemma keeps_op name f f' cs cs' v : Forall2 keeps cs cs' -> fast_shape f cs = false -> fast_shape f' cs' = false ->
    val (TOp name f cs) = Ok v -> val (TOp name f' cs') = Ok v.
  Proof. intros HK Hf Hf'. rewrite !val_op by assumption. apply vargs_keeps, HK. Qed.

  Definition keeps_val (f : tree -> tree) (t : tree) : Prop := forall v, val t = Ok v -> val (f t) = Ok v.

  Theorem value_pass p node (I : tree -> Prop) : is_pass p node ->
    (forall n f cs, can_be_last (node n f cs) = true) ->
    (forall n f cs, I (TOp n f cs) -> Forall I cs) ->
    (forall c t f, I (TIf c t f) -> I c /\ I t /\ I f) ->
    (forall n f cs v, I (TOp n f cs) -> Forall2 keeps cs (map p cs) ->
       val (TOp n f cs) = Ok v -> val (node n f (map p cs)) = Ok v) ->
    forall t, I t -> keeps_val p t.
  Proof.
    intros Hp Hl Io Ii Hn. pose proof (pass_can_be_last p node Hp Hl) as Hcl. destruct Hp as (Pl & Po & Pi).
    induction t as [v|n k|n f cs IH|c t f IHc IHt IHf] using tree_ind2; intros HI v0 H.
    - rewrite Pl by reflexivity. exact H.
    - rewrite Pl by reflexivity. exact H.
    - rewrite Po. apply (Hn n f cs v0 HI); [|exact H]. apply Forall2_map_r.
      refine (Forall_impl _ _ (Forall_and IH (Io n f cs HI))). intros c [Hc Ic]. split; [symmetry; apply Hcl|exact (Hc Ic)].
    - rewrite Pi. apply Ii in HI. destruct HI as (Ic & It & If). destruct (if_value_inv fetch custom _ _ _ _ H) as (b & Ec & Eb).
      rewrite val_if, (IHc Ic _ Ec). destruct b; [apply IHt|apply IHf]; assumption.
  Qed.

  Definition obool (c : tree) : option bool := match val c with Ok (VBool b) => Some b | _ => None end.

  (* left to right over the operands' booleans; cnt = number of operands already passed. With none deciding the operator is
     applied to all of them, and on fewer than two it fails (its count error): hence `None` *)
  Fixpoint scanb (d : bool) (l : list (option bool)) (cnt : nat) : option bool :=
    match l with
    | [] => if (2 <=? cnt)%nat then Some (negb d) else None
    | None :: _ => None
    | Some b :: l' => if Bool.eqb b d then Some d else scanb d l' (S cnt)
    end.

  Definition typed_ops (cs : list tree) : Prop := Forall (fun c => forall v, val c = Ok v -> exists b, v = VBool b) cs.

  Lemma vargs_scanb name d : op_kind name = Some d -> forall cs, typed_ops cs -> forall acc, Forall (fun x => x = VBool (negb d)) acc ->
    match vargs name cs acc with Ok v => Some v | Err _ => None end = option_map VBool (scanb d (map obool cs) (length acc)).
  Proof.
    intros Hk. induction cs as [|c cs IH]; intros Ht acc Ha.
    - rewrite vargs_nil. cbn [map scanb]. destruct (2 <=? length acc)%nat eqn:E.
      + apply Nat.leb_le in E. rewrite (apply_all_nd custom name d acc Hk Ha E). reflexivity.
      + apply Nat.leb_gt in E. destruct (apply_op name (rev acc)) as [v|e] eqn:Ea; [destruct (apply_few custom name d acc Hk E v Ea)|reflexivity].
    - inversion Ht as [|? ? Hc Hcs]; subst. rewrite vargs_cons, Hk. cbn [map scanb]. unfold obool at 1.
      destruct (val c) as [v0|e] eqn:Ec; [|reflexivity]. destruct (Hc v0 eq_refl) as [b0 ->]. cbn [operand_result].
      destruct (Bool.eqb b0 d) eqn:Eb; [apply Bool.eqb_prop in Eb; subst b0; reflexivity|]. cbn [orb].
      assert (Hb0 : b0 = negb d) by (destruct b0, d; try reflexivity; discriminate). subst b0.
      destruct (lastflag c cs acc) eqn:El; [|exact (IH Hcs (VBool (negb d) :: acc) (Forall_cons _ eq_refl Ha))].
      (* the last operand, not deciding: its value is the result, as it is the scan's when two operands were seen *)
      unfold lastflag in El. destruct cs as [|c2 cs2]; [|discriminate]. apply andb_prop in El. destruct El as [_ El].
      cbn [map scanb]. replace (2 <=? S (length acc))%nat with true; [reflexivity|].
      unfold lenZ in El. cbn [length] in El. apply Z.leb_le in El. symmetry. apply Nat.leb_le. lia.
  Qed.

  Lemma obool_group name d gcs : op_kind name = Some d -> typed_ops gcs ->
    obool (TOp name false gcs) = scanb d (map obool gcs) 0.
  Proof.
    intros Hk Ht. unfold obool at 1. rewrite val_op by reflexivity.
    pose proof (vargs_scanb name d Hk gcs Ht [] (Forall_nil _)) as A. cbn [length] in A.
    destruct (scanb d (map obool gcs) 0); destruct (vargs name gcs []) as [[]|]; inversion A; reflexivity.
  Qed.

  Lemma scanb_mono d : forall ys c c' b, scanb d ys c = Some b -> (c <= c')%nat -> scanb d ys c' = Some b.
  Proof.
    induction ys as [|[b0|] ys IH]; intros c c' b H Hc; cbn [scanb] in *.
    - destruct (2 <=? c)%nat eqn:E; [|discriminate]. apply Nat.leb_le in E. replace (2 <=? c')%nat with true by (symmetry; apply Nat.leb_le; lia). exact H.
    - destruct (Bool.eqb b0 d); [exact H|]. eapply IH; [exact H|lia].
    - discriminate.
  Qed.

  (* splicing the operands g of an inner group in place of the group's own result (c0 of them already scanned): a
     group that decides does so in place too; one that does not had two operands or more, so the count only grows *)
  Lemma scanb_splice d ys ys' : (forall c b, scanb d ys c = Some b -> scanb d ys' c = Some b) ->
    forall g c0 cnt b, scanb d (scanb d g c0 :: ys) cnt = Some b -> scanb d (g ++ ys') (cnt + c0) = Some b.
  Proof.
    intros Hy. induction g as [|[x|] g IH]; intros c0 cnt b H; cbn [scanb app] in *.
    - destruct (2 <=? c0)%nat eqn:E; [|discriminate]. apply Nat.leb_le in E. rewrite Bool.eqb_negb1 in H.
      apply Hy. eapply scanb_mono; [exact H|lia].
    - destruct (Bool.eqb x d); [rewrite Bool.eqb_reflx in H; exact H|]. rewrite <- Nat.add_succ_r. apply IH. exact H.
    - discriminate.
  Qed.

  Lemma scanb_total d bs cnt : (2 <= cnt + length bs)%nat ->
    scanb d (map Some bs) cnt = Some (if existsb (Bool.eqb d) bs then d else negb d).
  Proof.
    revert cnt. induction bs as [|b bs IH]; intros cnt H; cbn [map scanb existsb length] in *.
    - rewrite Nat.add_0_r in H. apply Nat.leb_le in H. rewrite H. reflexivity.
    - destruct b, d; cbn; try reflexivity; apply IH; lia.
  Qed.

  Lemma vargs_none name : op_kind name = None -> forall vs cs, Forall2 (fun x c => val c = Ok x) vs cs ->
    forall acc, vargs name cs acc = apply_op name (rev acc ++ vs).
  Proof.
    intros Hk. induction 1 as [|x c vs cs Hc HF IH]; intros acc.
    - rewrite vargs_nil, app_nil_r. reflexivity.
    - rewrite vargs_cons, Hc, Hk. cbn [operand_result]. rewrite IH. cbn [rev]. rewrite <- app_assoc. reflexivity.
  Qed.

  Lemma vargs_strict name vs cs r : Forall2 (fun x c => val c = Ok x) vs cs -> apply_op name vs = Ok r ->
    vargs name cs [] = Ok r.
  Proof.
    intros HF Ha. destruct (op_kind name) as [d|] eqn:Hk; [|rewrite (vargs_none name Hk vs cs HF []); exact Ha].
    destruct (boolop_inv custom name d vs r Hk Ha) as (bs & -> & Hl & ->).
    assert (T : typed_ops cs /\ map obool cs = map Some bs).
    { clear -HF. revert cs HF. induction bs as [|b bs IH]; intros cs HF; inversion HF as [|? c ? cs' Hc HF']; subst; [split; constructor|].
      destruct (IH _ HF') as [T E]. split; [constructor; [intros v Hv; rewrite Hc in Hv; inversion Hv; eauto|exact T]|].
      cbn [map]. unfold obool at 1. rewrite Hc, E. reflexivity. }
    destruct T as [T E]. pose proof (vargs_scanb name d Hk cs T [] (Forall_nil _)) as A.
    cbn [length] in A. rewrite E, (scanb_total d bs 0 Hl) in A. destruct (vargs name cs []); inversion A; reflexivity.
  Qed.

  Lemma vargs_decider name d : op_kind name = Some d -> forall cs, In (TConst (VBool d)) cs -> forall acc v,
    vargs name cs acc = Ok v -> v = VBool d.
  Proof.
    intros Hk. induction cs as [|c cs IH]; intros Hin acc v H; [destruct Hin|]. rewrite vargs_cons, Hk in H.
    destruct Hin as [->|Hin].
    - rewrite val_const in H. cbn [operand_result] in H. rewrite Bool.eqb_reflx in H. inversion H. reflexivity.
    - destruct (val c) as [x|e]; [|discriminate]. destruct (operand_result (Some d) (lastflag c cs acc) x) eqn:Eo; [|eapply IH; eassumption].
      inversion H; subst x. destruct v as [z|b|s|li|ls|si|ss'| | |o]; try discriminate Eo.
      apply orb_prop in Eo. destruct Eo as [Eo|Eo]; [apply Bool.eqb_prop in Eo; subst; reflexivity|].
      unfold lastflag in Eo. destruct cs; [destruct Hin|discriminate].
  Qed.

  Fixpoint nofast (t : tree) : Prop :=
    match t with
    | TOp _ fast cs => fast = false /\ (fix all (l : list tree) : Prop := match l with [] => True | a :: l' => nofast a /\ all l' end) cs
    | TIf c t f => nofast c /\ nofast t /\ nofast f
    | _ => True
    end.

  Lemma nofast_op name fast cs : nofast (TOp name fast cs) <-> fast = false /\ Forall nofast cs.
  Proof. cbn [nofast]. rewrite (all_Forall nofast). reflexivity. Qed.

  Fixpoint vars_ok (t : tree) : Prop :=
    match t with
    | TConst _ => True
    | TVar n k => exists v, fetch n k = Ok v
    | TOp _ _ cs => (fix all (l : list tree) : Prop := match l with [] => True | a :: l' => vars_ok a /\ all l' end) cs
    | TIf c t f => vars_ok c /\ vars_ok t /\ vars_ok f
    end.

  Lemma vars_ok_op name fast cs : vars_ok (TOp name fast cs) <-> Forall vars_ok cs.
  Proof. cbn [vars_ok]. apply all_Forall. Qed.

  Lemma leaf_val_ok t : is_leaf t = true -> vars_ok t -> exists v, val t = Ok v.
  Proof. destruct t as [v|n k| |]; try discriminate; intros _ H; [exists v; reflexivity|]. destruct H as [v Hv]. exists v. unfold val. cbn. exact Hv. Qed.

  Variable cfg : config.
  Notation wt := (wt fetch custom).
  Notation boolish := (boolish fetch custom).

  Lemma nofast_pass p node : is_pass p node ->
    (forall n cs, Forall nofast cs -> nofast (node n false cs)) -> forall t, nofast t -> nofast (p t).
  Proof.
    intros Hp Hn. apply (pass_pred p node Hp nofast); [intros n f cs H; apply nofast_op in H; apply H|reflexivity|].
    intros n f cs cs' H. apply nofast_op in H. destruct H as [-> _]. apply Hn.
  Qed.

  Lemma vars_ok_pass p node : is_pass p node ->
    (forall n f cs, Forall vars_ok cs -> vars_ok (node n f cs)) -> forall t, vars_ok t -> vars_ok (p t).
  Proof.
    intros Hp Hn. apply (pass_pred p node Hp vars_ok); [intros n f cs; apply vars_ok_op|reflexivity|].
    intros n f cs cs' _. apply Hn.
  Qed.

  Lemma cfold_nofast : forall t, nofast t -> nofast (fst (cfold custom cfg t)).
  Proof.
    apply (nofast_pass _ _ (cfold_pass custom cfg)). intros n cs H.
    apply fold_node_fst; [apply nofast_op; auto|intros; exact I|intros; exact I].
  Qed.

  Lemma cfold_vars_ok : forall t, vars_ok t -> vars_ok (fst (cfold custom cfg t)).
  Proof.
    apply (vars_ok_pass _ _ (cfold_pass custom cfg)). intros n f cs H.
    apply fold_node_fst; [apply vars_ok_op; exact H|intros; exact I|intros; exact I].
  Qed.

  Lemma nest_nofast : forall t, nofast t -> nofast (nest t).
  Proof.
    apply (nofast_pass _ _ nest_pass). intros n cs H. apply nest_node_cases; [apply nofast_op; auto|].
    intros d l _ Ef. apply nofast_op. split; [reflexivity|]. refine (flatten_Forall d nofast _ cs l Ef H).
    intros n' f gcs _ Hg. apply nofast_op in Hg. apply Hg.
  Qed.

  Lemma nest_vars_ok : forall t, vars_ok t -> vars_ok (nest t).
  Proof.
    apply (vars_ok_pass _ _ nest_pass). intros n f cs H. apply nest_node_cases; [apply vars_ok_op; exact H|].
    intros d l _ Ef. apply vars_ok_op. refine (flatten_Forall d vars_ok _ cs l Ef H).
    intros n' f' gcs _. apply vars_ok_op.
  Qed.

  Theorem cfold_value : forall t, nofast t -> keeps_val (fun t => fst (cfold custom cfg t)) t.
  Proof.
    apply (value_pass _ _ nofast (cfold_pass custom cfg)).
    - intros n f cs. apply fold_node_fst; reflexivity.
    - intros n f cs H. apply nofast_op in H. apply H.
    - auto.
    - intros n f cs v Hn HK H. apply nofast_op in Hn. destruct Hn as [-> _].
      apply (keeps_op n false false _ _ v HK eq_refl eq_refl) in H. rewrite val_op in H by reflexivity.
      apply fold_node_fst; [rewrite val_op by reflexivity; exact H| |].
      + intros d Hk Hin. rewrite (vargs_decider n d Hk _ Hin [] v H). reflexivity.
      + intros vs r E Ha. rewrite E in H. rewrite (vargs_strict n vs _ r) in H; [exact H| |exact Ha].
        apply Forall2_map_r, Forall_forall. reflexivity.
  Qed.

  Lemma typed_of_wt c : wt c -> boolish c -> forall v, val c = Ok v -> exists b, v = VBool b.
  Proof.
    intros Hw Hb v Hv. pose proof (sem_refines_den fetch custom c Hw v Hv) as Hd.
    destruct Hb as [Hn|[b Hb]]; [congruence|]. rewrite Hb in Hd. inversion Hd. eauto.
  Qed.

  Lemma typed_ops_wt name d f cs : op_kind name = Some d -> wt (TOp name f cs) -> typed_ops cs.
  Proof.
    intros Hk H. apply wt_op in H. destruct H as [Hw Hb].
    refine (Forall_impl _ _ (Forall_and Hw (Hb d Hk))). intros c [W B]. apply typed_of_wt; assumption.
  Qed.

  Lemma flatten_scanb d : forall cs l, flatten (negb d) cs = Some l -> Forall nofast cs -> Forall wt cs ->
    forall cnt b, scanb d (map obool cs) cnt = Some b -> scanb d (map obool l) cnt = Some b.
  Proof.
    apply (flatten_ind d (fun cs l => Forall nofast cs -> Forall wt cs -> forall cnt b, scanb d (map obool cs) cnt = Some b -> scanb d (map obool l) cnt = Some b)).
    - auto.
    - intros c cs l _ IH Hn Hw cnt b. inversion Hn. inversion Hw. subst. cbn [map scanb].
      destruct (obool c) as [x|]; [|discriminate]. destruct (Bool.eqb x d); auto.
    - intros n f gcs cs l Hk IH Hn Hw cnt b. inversion Hn as [|? ? Hnc Hn']. inversion Hw as [|? ? Hwc Hw']. subst.
      apply nofast_op in Hnc. destruct Hnc as [-> _]. cbn [map]. rewrite (obool_group n d gcs Hk (typed_ops_wt n d _ _ Hk Hwc)), map_app.
      intros H. rewrite <- (Nat.add_0_r cnt). exact (scanb_splice d _ _ (IH Hn' Hw') _ 0%nat cnt b H).
  Qed.

  Theorem nest_value : forall t, nofast t -> wt t -> keeps_val nest t.
  Proof.
    intros t0 Hn Hw. refine (value_pass _ _ (fun t => nofast t /\ wt t) nest_pass _ _ _ _ t0 (conj Hn Hw)).
    - intros n f cs. apply nest_node_cases; reflexivity.
    - intros n f cs [N W]. apply nofast_op in N. apply wt_op in W. apply Forall_and; [apply N|apply W].
    - intros c t f [N W]. cbn [nofast OptSound.wt] in *. tauto.
    - intros n f cs v [N W] HK H. apply nofast_op in N. destruct N as [-> N].
      apply (keeps_op n false false _ _ v HK eq_refl eq_refl) in H.
      assert (N' : Forall nofast (map nest cs)) by (apply Forall_map; exact (Forall_impl _ nest_nofast N)).
      assert (W' : wt (TOp n false (map nest cs))).
      { revert W. apply (sound_op fetch custom), Forall2_map_r, Forall_forall. intros c _. apply sound_nest. }
      revert H. apply nest_node_cases; [auto|]. intros d l Hk Ef. rewrite !val_op by reflexivity. intros H.
      pose proof (vargs_scanb n d Hk _ (typed_ops_wt n d _ _ Hk W') [] (Forall_nil _)) as A. rewrite H in A.
      pose proof (vargs_scanb n d Hk l (typed_ops_wt n d _ _ Hk (flatten_wt fetch custom d n false _ l Hk Ef W')) [] (Forall_nil _)) as B.
      cbn [length] in *. destruct (scanb d (map obool (map nest cs)) 0) as [b|] eqn:Hs; [|discriminate A].
      apply wt_op in W'. rewrite (flatten_scanb d _ l Ef N' (proj1 W') 0%nat b Hs) in B.
      destruct (vargs n l []); [congruence|discriminate B].
  Qed.

  Lemma fastp_is_leaf t : is_leaf (fastp t) = is_leaf t.
  Proof. destruct t; reflexivity. Qed.

  Theorem fastp_value : forall t, nofast t -> wt t -> vars_ok t -> keeps_val fastp t.
  Proof.
    intros t0 Hn Hw Hv. refine (value_pass _ _ (fun t => nofast t /\ wt t /\ vars_ok t) fastp_pass _ _ _ _ t0 (conj Hn (conj Hw Hv))).
    - reflexivity.
    - intros n f cs (N & W & V). apply nofast_op in N. apply wt_op in W. apply vars_ok_op in V.
      apply Forall_and; [apply N|apply Forall_and; [apply W|exact V]].
    - intros c t f (N & W & V). cbn [nofast OptSound.wt vars_ok] in *. tauto.
    - intros n f cs v (N & W & V) HK H. apply nofast_op in N. destruct N as [-> _]. cbn [orb].
      destruct (fast_shape true (map fastp cs)) eqn:Hfs; [|exact (keeps_op n false false _ _ v HK eq_refl eq_refl H)].
      (* two leaves: marked fast; both are fetched, and being bound both evaluate *)
      destruct (fast_shape_inv _ _ Hfs) as (a' & b' & Em & La & Lb & _). destruct cs as [|a [|b [|]]]; try discriminate Em.
      cbn [map] in *. inversion Em; subst a' b'. rewrite fastp_is_leaf in La, Lb. rewrite (proj1 fastp_pass a La), (proj1 fastp_pass b Lb) in *.
      apply vars_ok_op in V. inversion V as [|? ? Va V']. inversion V' as [|? ? Vb _]. subst.
      destruct (leaf_val_ok a La Va) as [va Ea]. destruct (leaf_val_ok b Lb Vb) as [vb Eb].
      rewrite (val_fast n a b Hfs), Ea, Eb. rewrite val_op in H by reflexivity.
      assert (HF : Forall2 (fun x c => val c = Ok x) [va; vb] [a; b]) by (repeat constructor; assumption).
      destruct (op_kind n) as [d|] eqn:Hk; [|rewrite (vargs_none n Hk _ _ HF []) in H; exact H].
      pose proof (typed_ops_wt n d _ _ Hk W) as T. inversion T as [|? ? Ta T']. inversion T' as [|? ? Tb _]. subst.
      destruct (Ta va Ea) as [x ->]. destruct (Tb vb Eb) as [y ->].
      pose proof (boolop_apply custom n d [x; y] Hk (le_n 2)) as A. rewrite (vargs_strict n _ _ _ HF A) in H. rewrite <- H. exact A.
  Qed.

  (* what constant folding and nesting reduction hand on to the next pass *)
  Definition good (v : value) (t : tree) : Prop := nofast t /\ wt t /\ vars_ok t /\ val t = Ok v.

  Lemma cfold_good v t : good v t -> good v (fst (cfold custom cfg t)).
  Proof.
    intros (N & W & V & E). split; [apply cfold_nofast, N|]. split; [apply (sound_cfold fetch custom cfg), W|].
    split; [apply cfold_vars_ok, V|apply cfold_value; assumption].
  Qed.

  Lemma nest_good v t : good v t -> good v (nest t).
  Proof.
    intros (N & W & V & E). split; [apply nest_nofast, N|]. split; [apply (sound_nest fetch custom), W|].
    split; [apply nest_vars_ok, V|apply nest_value; assumption].
  Qed.

  (* C02, third clause: Reordering off. Whatever the other three switches, the cost map and the stateless
     declarations are: if plain left-to-right short-circuit evaluation of t returns a value, the optimised expression
     returns that value — for t as the parser produces it (no fast marks), with boolean-valued and/or operands, under a
     binding that binds all its variables *)
  Theorem no_reorder_value t v :
    pass_on cfg "reordering" = false -> nofast t -> wt t -> vars_ok t ->
    val t = Ok v -> val (optimize custom cfg t) = Ok v.
  Proof.
    intros Hr Hn Hw Hv H. rewrite optimize_passes, Hr. cbv zeta.
    (* fast marking comes last of the three: it does not keep `nofast`, which the other two need *)
    set (t2 := if pass_on cfg "reduce_nesting" then _ else _). assert (G : good v t2).
    { unfold t2. destruct (pass_on cfg "reduce_nesting"); [apply nest_good|]; (destruct (pass_on cfg "constant_folding"); [apply cfold_good|]); repeat split; assumption. }
    destruct G as (N & W & V & E). destruct (pass_on cfg "fast_evaluation"); [apply fastp_value; assumption|exact E].
  Qed.
End V.

Print Assumptions no_reorder_value.

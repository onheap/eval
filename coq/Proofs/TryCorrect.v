(* TryCorrect.v — T-TRY at machine level: the model of Expr.TryEval run on the compiled program computes `trysem`,
   the tree-level meaning of TryEval, for every tree, fetcher, operator table and availability predicate: same value
   or error, same fetches and operator applications, no panic, no fuel exhaustion. Proved for both modes of the back
   end at once (`compG ev`), "computes" being a relation `R` with `EvalDefs.describes ev R`. *)
Require Import Base Ops Tree Flat Run SemFacts CompFacts CompG TryFacts EvalDefs EvalCorrect EvalTop ListFacts.
From Coq Require Import Lia.
Open Scope Z_scope.
Open Scope list_scope.

Lemma tflag_mk last k cnt mf mt h r : tflag (mk last k cnt mf mt h r) = r.
Proof. destruct r as [[]|]; reflexivity. Qed.

Lemma bindT_preR tr x K : bindT (preR tr x) K = preM (map e2o tr) (bindT x K).
Proof. exact (bindT_pre tr x K). Qed.

Section M.
  Variable P : prog.

  Lemma nodes_pos base code : placed (nodes P) base code -> code <> [] -> (1 <= length (nodes P))%nat.
  Proof. intros (pre & post & E & _) Hn. rewrite E, !app_length. destruct code; [congruence|]. cbn [length]. lia. Qed.
End M.

Section T.
  Variable fetch : str -> Z -> res value.
  Variable custom : str -> list value -> res value.
  Variable cached : str -> Z -> bool.
  Variable P : prog.

  Notation L := (lenZ (nodes P)).
  Notation getn := (getn P).
  Notation tryrun := (tryrun fetch custom cached P).
  Notation tclimb := (tclimb P).
  Notation lastI := (lastI P).
  Notation need := (need P).
  Notation trysem := (trysem fetch custom cached).
  Notation trysem_args := (trysem_args fetch custom cached).

  Definition climbP (cf : nat) (k : Z -> list value -> list obs * mres) (pi : option Z) (v : value) (stk : list value)
    : list obs * mres :=
    match pi with
    | None => ([], MPanic 20)
    | Some pi =>
      if pi =? -1 then ([], MVal v) else
      match getn pi with
      | None => ([], MPanic 21)
      | Some p =>
        if is_cond_kind (kind p) && negb (tmatch p v) then
          match getn (scIdx p) with
          | None => ([], MPanic 22)
          | Some fi =>
            let j := scIdx fi in
            match getn j with
            | None => ([], MPanic 23)
            | Some e => store_at P k (j + 1) (osTop e - 1) v stk
            end
          end
        else tclimb cf k pi p v (osTop p - 1) stk
      end
    end.

  Lemma tclimb_S cf k i nd v top stk : tclimb (S cf) k i nd v top stk =
    if tmatch nd v then climbP cf k (parent_of P i) v stk else store_at P k (i + 1) top v stk.
  Proof. reflexivity. Qed.

  (* what happens to the value v of a subtree whose root has parent flag r and parent index pidx, the subtree's
     slot being h and the next instruction `next`; cf is the fuel the climb has left *)
  Definition afterT (cf : nat) (k : Z -> list value -> list obs * mres) (next : Z) (r : rco) (pidx : Z) (v : value)
                    (h : Z) (stk : list value) : list obs * mres :=
    if tmatches r v then climbP cf k (Some pidx) v stk else store_at P k next (h - 1) v stk.

  Lemma store_ok k next h v s x : lenZ s = h -> h < alloc P ->
    store_at P k next (h - 1) v (s ++ x) = k next (s ++ [v]).
  Proof.
    intros Hs Ha. unfold store_at. rewrite lenZ_app. pose proof (lenZ_nonneg x). pose proof (lenZ_nonneg s).
    replace ((h - 1 + 1 <? 0) || (lenZ s + lenZ x <? h - 1 + 1)) with false by lia.
    replace (h - 1 + 1) with (lenZ s) by lia. rewrite firstnZ_app_all. unfold push. replace (lenZ s <? alloc P) with true by lia. reflexivity.
  Qed.

  Lemma tclimb_root cf k i nd v h stk r pidx : tflag nd = r -> parent_of P i = Some pidx ->
    tclimb (S cf) k i nd v (h - 1) stk = afterT cf k (i + 1) r pidx v h stk.
  Proof. intros <- Hp. rewrite tclimb_S, Hp. reflexivity. Qed.

  Lemma climb_op cf k i p v stk r pidx : getn i = Some p -> is_cond_kind (kind p) = false ->
    tflag p = r -> parent_of P i = Some pidx ->
    climbP (S cf) k (Some i) v stk = afterT cf k (i + 1) r pidx v (osTop p) stk.
  Proof.
    intros G K Hr Hp. pose proof (nthZ_range _ _ _ G). unfold climbP. replace (i =? -1) with false by lia.
    rewrite G, K. cbn [andb]. apply tclimb_root; assumption.
  Qed.

  (* a climb that arrives at an `if` node: a value the parent of the `if` takes goes on upwards; any other is the
     value of the `if` and is stored behind e, the last node of the false branch *)
  Lemma climb_if cf k i p fi j e v stk r pidx : getn i = Some p -> kind p = KIf -> tflag p = r ->
    parent_of P i = Some pidx -> getn (scIdx p) = Some fi -> scIdx fi = j -> getn j = Some e ->
    climbP (S cf) k (Some i) v stk = afterT cf k (j + 1) r pidx v (osTop e) stk.
  Proof.
    intros G K Hr Hp Gf <- Ge. pose proof (nthZ_range _ _ _ G). unfold climbP, afterT. replace (i =? -1) with false by lia.
    rewrite G, K. cbn [is_cond_kind andb]. unfold tmatch at 1. rewrite Hr. destruct (tmatches r v) eqn:Em; cbn [negb].
    - rewrite tclimb_S. unfold tmatch. rewrite Hr, Em, Hp. reflexivity.
    - rewrite Gf, Ge. reflexivity.
  Qed.

  (* the loop is entered with as much fuel as there are nodes *)
  Lemma go_root f i nd v h stk r pidx : getn i = Some nd -> tflag nd = r -> parent_of P i = Some pidx ->
    tclimb (length (nodes P)) (tryrun f) i nd v (h - 1) stk =
      afterT (length (nodes P) - 1) (tryrun f) (i + 1) r pidx v h stk.
  Proof.
    intros G Hr Hp. pose proof (nthZ_range _ _ _ G) as Rg. unfold lenZ in Rg.
    destruct (length (nodes P)) as [|n]; [lia|]. replace (S n - 1)%nat with n by lia. apply tclimb_root; assumption.
  Qed.

  (* the value of a fast operator (node nd at index i) appears while the loop stands on its last leaf, index i + 2,
     whose parent is the operator: the climb starts one level further down than for any other node *)
  Lemma go_fast f i nd nb v h stk r pidx : getn i = Some nd -> getn (i + 2) = Some nb ->
    is_cond_kind (kind nd) = false -> tflag nd = r -> parent_of P i = Some pidx -> parent_of P (i + 2) = Some i ->
    tclimb (length (nodes P)) (tryrun f) (i + 2) nd v (h - 1) stk =
      afterT (length (nodes P) - 2) (tryrun f) (i + 2 + 1) r pidx v h stk.
  Proof.
    intros G G2 K Hr Hp Hq. pose proof (nthZ_range _ _ _ G) as Rg. pose proof (nthZ_range _ _ _ G2) as Rg2. unfold lenZ in Rg2.
    destruct (length (nodes P)) as [|[|n]]; try lia. replace (S (S n) - 2)%nat with n by lia.
    rewrite tclimb_S, Hq. unfold afterT at 1, tmatch. rewrite Hr. destruct (tmatches r v) eqn:Em; [|reflexivity].
    rewrite (climb_op _ _ _ _ _ _ r pidx G K Hr Hp). unfold afterT. rewrite Em. reflexivity.
  Qed.

  (* One step of the loop at a node that exists, per kind of node: no later proof looks into `tryrun` again. *)

  Lemma tryrun_end f i stk : L <= i -> tryrun (S f) i stk = ([], match stk with v :: _ => MVal v | [] => MPanic 1 end).
  Proof. intros H. cbn [Run.tryrun]. unfold psize. replace (L <=? i) with true by lia. reflexivity. Qed.

  Lemma tleaf_leaf nd t : kind nd = leaf_kind t -> is_leaf t = true ->
    tleaf fetch cached nd = (map e2o (fst (tleaf_val fetch cached t)), snd (tleaf_val fetch cached t)).
  Proof.
    intros K Hl. unfold tleaf. rewrite K. destruct t as [v|n k| |]; try discriminate; cbn [leaf_kind tleaf_val]; [reflexivity|].
    destruct (cached n k); reflexivity.
  Qed.

  Lemma tproxy_proxy nd name fast args : (kind nd = KOp name \/ kind nd = KFast name) ->
    tproxy custom nd name fast args = (map e2o (fst (proxy custom name fast args)), snd (proxy custom name fast args)).
  Proof.
    intros Hk. unfold tproxy, proxy.
    assert (E1 : is_boolname_and (kind nd) = is_and name) by (destruct Hk as [-> | ->]; reflexivity).
    assert (E2 : is_boolname_or (kind nd) = is_or name) by (destruct Hk as [-> | ->]; reflexivity).
    rewrite E1, E2. destruct (is_and name && existsb is_false args); [reflexivity|].
    destruct (is_or name && existsb is_true args); [reflexivity|]. destruct (existsb is_dne args); reflexivity.
  Qed.

  Lemma tryrun_leaf f i nd t stk r pidx : getn i = Some nd -> kind nd = leaf_kind t -> is_leaf t = true ->
    tflag nd = r -> parent_of P i = Some pidx ->
    tryrun (S f) i stk =
      bindT (tleaf_val fetch cached t) (fun v => afterT (length (nodes P) - 1) (tryrun f) (i + 1) r pidx v (lenZ stk) stk).
  Proof.
    intros G K Hl Hr Hp.
    assert (E : tryrun (S f) i stk = match tleaf fetch cached nd with
                                   | (t1, Err e) => (t1, MErr e)
                                   | (t1, Ok v) => preM t1 (tclimb (length (nodes P)) (tryrun f) i nd v (lenZ stk - 1) stk)
                                   end).
    { cbn [Run.tryrun]. rewrite (psize_lt P _ _ G), G. unfold tleaf. rewrite K.
      destruct t; try discriminate; cbn [leaf_kind]; [rewrite preM_nil|]; reflexivity. }
    rewrite E, (tleaf_leaf nd t K Hl). destruct (tleaf_val fetch cached t) as [tr [v|e]]; cbn [fst snd bindT]; [|reflexivity].
    rewrite (go_root f i nd v _ stk r pidx G Hr Hp). reflexivity.
  Qed.

  Lemma tryrun_fast f i nd name a b na nb stk r pidx : getn i = Some nd -> kind nd = KFast name -> tflag nd = r ->
    getn (i + 1) = Some na -> getn (i + 2) = Some nb -> kind na = leaf_kind a -> kind nb = leaf_kind b ->
    fast_shape true [a; b] = true -> parent_of P i = Some pidx -> parent_of P (i + 2) = Some i ->
    tryrun (S f) i stk =
      bindT (trysem (TOp name true [a; b]))
            (fun v => afterT (length (nodes P) - 2) (tryrun f) (i + 2 + 1) r pidx v (lenZ stk) stk).
  Proof.
    intros G K Hr G1 G2 Ka Kb Hfs Hp Hq.
    destruct (fast_shape_inv _ _ Hfs) as (a' & b' & E & Ha & Hb & _). inversion E; subst a' b'. clear E.
    cbn [Run.tryrun]. rewrite (psize_lt P _ _ G), G, K, G1, G2, (tleaf_leaf na a Ka Ha), (tleaf_leaf nb b Kb Hb).
    cbn [Tree.trysem]. rewrite Hfs.
    destruct (tleaf_val fetch cached a) as [tr1 [va|e1]]; cbn [fst snd]; [|reflexivity].
    destruct (tleaf_val fetch cached b) as [tr2 [vb|e2]]; cbn [fst snd]; [|cbn [bindT]; rewrite map_app; reflexivity].
    rewrite tproxy_proxy by (right; exact K). rewrite bindT_preR.
    destruct (proxy custom name true [va; vb]) as [tr3 [v|e]]; cbn [fst snd bindT].
    - rewrite (go_fast f i nd nb v _ stk r pidx G G2 ltac:(rewrite K; reflexivity) Hr Hp Hq).
      rewrite preM_app, !map_app, <- app_assoc. reflexivity.
    - rewrite !map_app. unfold preM. cbn [fst snd]. rewrite <- app_assoc. reflexivity.
  Qed.

  Lemma tryrun_op f i nd name stk acc r pidx : getn i = Some nd -> kind nd = KOp name -> childCnt nd = lenZ acc ->
    tflag nd = r -> parent_of P i = Some pidx ->
    tryrun (S f) i (stk ++ rev acc) =
      bindT (proxy custom name false (rev acc))
            (fun v => afterT (length (nodes P) - 1) (tryrun f) (i + 1) r pidx v (lenZ stk) stk).
  Proof.
    intros G K C Hr Hp. cbn [Run.tryrun]. rewrite (psize_lt P _ _ G), G, K, C, lenZ_app, lenZ_rev.
    pose proof (lenZ_nonneg acc). pose proof (lenZ_nonneg stk).
    replace ((lenZ acc <? 0) || (lenZ stk + lenZ acc <? lenZ acc)) with false by lia.
    replace (Z.to_nat (lenZ stk + lenZ acc - lenZ acc)) with (length stk) by (unfold lenZ; lia).
    rewrite skipn_app, skipn_all, Nat.sub_diag, firstn_app, firstn_all, Nat.sub_diag. cbn [skipn firstn app].
    rewrite app_nil_r, tproxy_proxy by (left; exact K).
    destruct (proxy custom name false (rev acc)) as [tr [v|e]]; cbn [fst snd bindT]; [|reflexivity].
    rewrite <- (go_root f i nd v (lenZ stk) stk r pidx G Hr Hp). reflexivity.
  Qed.

  Lemma tryrun_if f i nd c stk : getn i = Some nd -> kind nd = KIf -> osTop nd = lenZ stk - 1 ->
    tryrun (S f) i (stk ++ [c]) =
      match c with
      | VBool true => tryrun f (i + 1) stk
      | VBool false => tryrun f (scIdx nd + 1) stk
      | _ => ([], MErr ECondNotBool)
      end.
  Proof.
    intros G K O. cbn [Run.tryrun]. rewrite (psize_lt P _ _ G), G, K, rev_app_distr. cbn [rev app]. rewrite rev_involutive.
    destruct c as [z|[]|s|li|ls|si|ss'| | |o]; try reflexivity.
    rewrite O, lenZ_rev. pose proof (lenZ_nonneg stk).
    replace ((lenZ stk - 1 + 1 <? 0) || (lenZ stk <? lenZ stk - 1 + 1)) with false by lia.
    replace (lenZ stk - 1 + 1) with (lenZ stk) by lia. rewrite firstnZ_all. reflexivity.
  Qed.

  Lemma tryrun_fi f i nd v stk : getn i = Some nd -> kind nd = KFi -> osTop nd = lenZ stk ->
    tryrun (S f) i (stk ++ [v]) = tryrun f (scIdx nd + 1) (stk ++ [v]).
  Proof.
    intros G K O. cbn [Run.tryrun]. rewrite (psize_lt P _ _ G), G, K, O. destruct (stk ++ [v]) eqn:E; [destruct stk; discriminate|]. rewrite <- E.
    assert (Hl : lenZ (stk ++ [v]) = lenZ stk + 1) by (rewrite lenZ_app; reflexivity).
    pose proof (lenZ_nonneg stk). rewrite Hl.
    replace ((lenZ stk + 1 <? 0) || (lenZ stk + 1 <? lenZ stk + 1)) with false by lia.
    rewrite <- Hl, firstnZ_all. reflexivity.
  Qed.

  Lemma tryrun_event f i nd pos of stk : getn i = Some nd -> kind nd = KEvent pos of ->
    tryrun (S f) i stk = preM [OLoop pos of stk] (tryrun f (i + 1) stk).
  Proof. intros G K. cbn [Run.tryrun]. rewrite (psize_lt P _ _ G), G, K. reflexivity. Qed.

  Variable ev : bool.

  Variable R : Z -> list obs * mres -> list obs * mres -> Prop.
  Hypothesis HR : describes ev R.
  Notation R_pre := (d_pre ev R HR).
  Notation R_refl := (d_refl ev R HR).
  Notation R_loop := (d_loop ev R HR).
  Notation R_mono := (d_mono ev R HR).

  Notation compG := (compG ev lastI).
  Notation gsize := (gsize ev).
  Notation ez := (ez ev).

  Hypothesis SA : forall i nd, getn i = Some nd -> osTop nd < alloc P.

  Definition at_nodeT := at_step P ev R HR tryrun tryrun_event.

  Definition code_at (base : Z) (code : list (node * Z)) : Prop :=
    placed (nodes P) base (map fst code) /\ sub_at (parents P) base (map snd code).

  Lemma code_at_app base a b : code_at base (a ++ b) -> code_at base a /\ code_at (base + Z.of_nat (length a)) b.
  Proof.
    unfold code_at. rewrite !map_app. intros [H1 H2]. apply placed_app in H1. apply placed_app in H2.
    unfold lenZ in H1, H2. rewrite map_length in H1, H2. tauto.
  Qed.

  Lemma code_at_cons base nd p rest : code_at base ((nd, p) :: rest) ->
    getn base = Some nd /\ parent_of P base = Some p /\ code_at (base + 1) rest.
  Proof. unfold code_at. cbn [map fst snd]. intros [H1 H2]. apply placed_cons in H1. apply placed_cons in H2. tauto. Qed.

  Lemma code_at_emit base pos nd pidx rest : code_at base (emit ev pos nd pidx ++ rest) ->
    (ev = true -> nthZ (nodes P) base = Some (event_node pos nd)) /\ getn (base + ez) = Some nd /\
    parent_of P (base + ez) = Some pidx /\ code_at (base + ez + 1) rest.
  Proof. unfold code_at. intros [H1 H2]. apply emit_placed in H1. apply emit_placed_snd in H2. tauto. Qed.

  (* cb: the fuel the climb still has when it leaves the subtree is at least cb. The climb is entered with
     `length (nodes P)` - 1 units (- 2 below a fast operator: `go_root`, `go_fast`) and loses one per ancestor; each
     ancestor owns at least one node outside the subtree, so passing `S cb` to an operand or a branch keeps
     `cb + gsize t` within the number of nodes. x: what lies on the stack above the subtree's slot when its value
     appears (operands of an operator that one of them decides). *)
  Definition sub_try (t : tree) : Prop :=
    forall base h inh anc mf mt pidx r KR stk (cb : nat),
      code_at base (compG t base h inh anc mf mt pidx r) ->
      lenZ stk = h -> (cb + gsize t <= length (nodes P))%nat ->
      (forall v cf f x, (cb <= cf)%nat -> (need (base + Z.of_nat (gsize t)) <= f)%nat ->
         R (base + Z.of_nat (gsize t)) (afterT cf (tryrun f) (base + Z.of_nat (gsize t)) r pidx v h (stk ++ x)) (KR v)) ->
      forall f, (need base <= f)%nat -> R base (tryrun f base stk) (bindT (trysem t) KR).

  Lemma bind_rootT lo i r pidx h KR stk y f cf cb : lo <= i + 1 -> i < L -> (need i <= S f)%nat -> (cb <= cf)%nat ->
    (forall v cf f x, (cb <= cf)%nat -> (need (i + 1) <= f)%nat ->
       R (i + 1) (afterT cf (tryrun f) (i + 1) r pidx v h (stk ++ x)) (KR v)) ->
    R lo (bindT y (fun v => afterT cf (tryrun f) (i + 1) r pidx v h stk)) (bindT y KR).
  Proof.
    intros Hlo Hi Hf Hc Hroot. destruct y as [tr [v|e]]; cbn [bindT]; [|apply R_refl].
    apply R_pre. apply (R_mono _ (i + 1)); [exact Hlo|]. rewrite <- (app_nil_r stk).
    apply Hroot; [exact Hc|]. apply (need_step _ _ _ _ Hf); lia.
  Qed.

  Lemma leaf_try t : is_leaf t = true -> sub_try t.
  Proof.
    intros Hl base h inh anc mf mt pidx r KR stk cb Hpl Hs Hcb Hroot f Hf.
    pose proof (ez_range ev) as He. pose proof (gsize_leaf ev t Hl) as Hg.
    rewrite compG_leaf in Hpl by exact Hl. rewrite <- (app_nil_r (emit _ _ _ _)) in Hpl.
    apply code_at_emit in Hpl. destruct Hpl as (G0 & G1 & Q1 & _). pose proof (nthZ_range _ _ _ G1) as Rg.
    replace (base + Z.of_nat (gsize t)) with (base + ez + 1) in Hroot by (unfold CompG.ez; arith).
    apply (at_nodeT f base _ stk _ G0 G1 Hf); intros f' Hf'.
    rewrite (tryrun_leaf _ _ _ t _ r pidx G1 eq_refl Hl (tflag_mk _ _ _ _ _ _ _) Q1), Hs.
    replace (trysem t) with (tleaf_val fetch cached t) by (destruct t; try discriminate; reflexivity).
    apply (bind_rootT _ _ _ _ _ _ _ _ _ _ cb); try assumption; arith.
  Qed.

  Lemma fast_try name a b : fast_shape true [a; b] = true -> sub_try (TOp name true [a; b]).
  Proof.
    intros Hfs base h inh anc mf mt pidx r KR stk cb Hpl Hs Hcb Hroot f Hf.
    pose proof (ez_range ev) as He. pose proof (gsize_fast ev name true [a; b] Hfs) as Hg.
    rewrite compG_fast_unfold in Hpl by exact Hfs. cbv zeta in Hpl.
    apply code_at_emit in Hpl. destruct Hpl as (G0 & G1 & Q1 & Hpl).
    apply code_at_cons in Hpl. destruct Hpl as (G2 & _ & Hpl). apply code_at_cons in Hpl. destruct Hpl as (G3 & Q3 & _).
    replace (base + ez + 1 + 1) with (base + ez + 2) in G3, Q3 by arith.
    replace (base + Z.of_nat (gsize (TOp name true [a; b]))) with (base + ez + 2 + 1) in Hroot by (unfold CompG.ez; arith).
    apply (at_nodeT f base _ stk _ G0 G1 Hf); intros f' Hf'.
    pose proof (nthZ_range _ _ _ G3) as R3.
    rewrite (tryrun_fast _ _ _ name a b _ _ _ r pidx G1 eq_refl (tflag_mk _ _ _ _ _ _ _) G2 G3 eq_refl eq_refl Hfs Q1 Q3), Hs.
    apply (bind_rootT _ _ _ _ _ _ _ _ _ _ cb); try assumption; try arith.
    apply (need_le _ _ _ _ Hf'). arith.
  Qed.

  Lemma bindT_targs_cons name c cs' acc K :
    bindT (trysem_args name (c :: cs') acc) K =
    bindT (trysem c) (fun v => if tmatches (op_kind name) v then K v else bindT (trysem_args name cs' (v :: acc)) K).
  Proof.
    cbn [Tree.trysem_args]. destruct (trysem c) as [tr [v|e]]; [|reflexivity].
    unfold bindT at 2. cbv beta. destruct (tmatches (op_kind name) v).
    - reflexivity.
    - rewrite bindT_preR. reflexivity.
  Qed.

  (* the operands of an operator whose node sits at ridx, from the operand behind `acc` on *)
  Lemma args_try name n ridx h_p pn r_p pidx_p KR_p stk0 (cb_p : nat) :
    (ev = true -> nthZ (nodes P) (ridx - ez) = Some (event_node ridx pn)) ->
    getn ridx = Some pn -> kind pn = KOp name -> childCnt pn = n -> tflag pn = r_p -> osTop pn = h_p ->
    parent_of P ridx = Some pidx_p -> lenZ stk0 = h_p ->
    (forall v cf f x, (cb_p <= cf)%nat -> (need (ridx + 1) <= f)%nat ->
       R (ridx + 1) (afterT cf (tryrun f) (ridx + 1) r_p pidx_p v h_p (stk0 ++ x)) (KR_p v)) ->
    forall anc' cs, Forall sub_try cs ->
    forall acc b f,
      code_at b (compG_args ev lastI (op_kind name) n ridx anc' cs b (h_p + lenZ acc)) ->
      b + Z.of_nat (gsizes ev cs) = ridx - ez -> lenZ acc + lenZ cs = n ->
      (S cb_p + en ev + gsizes ev cs <= length (nodes P))%nat ->
      (need b <= f)%nat ->
      R b (tryrun f b (stk0 ++ rev acc)) (bindT (trysem_args name cs acc) KR_p).
  Proof.
    intros Gev Gp Kp Cp Fp OSp Pp Hs0 Hroot anc' cs HF.
    pose proof (nthZ_range _ _ _ Gp) as Rp. pose proof (ez_range ev) as He.
    induction HF as [|c cs' Hc _ IH]; intros acc b f Hpl Hb Hlen Hcb Hf.
    - (* the operator node itself, behind its event node *)
      cbn [gsizes fold_right] in Hb. replace b with (ridx - ez) in * by arith. cbn [Tree.trysem_args].
      apply (at_nodeT f (ridx - ez) pn); replace (ridx - ez + ez) with ridx by arith; [exact Gev|exact Gp|exact Hf|]; intros f' Hf'.
      rewrite (tryrun_op _ _ _ name _ _ r_p pidx_p Gp Kp)
        by (try assumption; change (lenZ (@nil tree)) with 0 in Hlen; arith).
      rewrite Hs0. apply (bind_rootT _ _ _ _ _ _ _ _ _ _ cb_p); try assumption; arith.
    - cbn [compG_args] in Hpl. cbv zeta in Hpl. apply code_at_app in Hpl. destruct Hpl as [Hpc Hprest].
      rewrite compG_length in Hprest. cbn [gsizes fold_right] in Hb, Hcb. fold (gsizes ev cs') in Hb, Hcb.
      pose proof (gsize_pos ev c) as Hsz.
      rewrite bindT_targs_cons.
      assert (Hlenstk : lenZ (stk0 ++ rev acc) = h_p + lenZ acc) by (rewrite lenZ_app, lenZ_rev; arith).
      assert (Hal : h_p + lenZ acc < alloc P).
      { (* the operand's slot is written by the first node of its code *)
        destruct (compG_first_placed _ _ _ _ _ _ _ _ _ _ _ _ (proj1 Hpc)) as (nd0 & G & Ho). apply SA in G. arith. }
      eapply (Hc b (h_p + lenZ acc) false anc' _ _ ridx (op_kind name) _ (stk0 ++ rev acc) (S cb_p) Hpc Hlenstk).
      + arith.
      + intros v cf f0 x Hcf Hf0. unfold afterT. destruct (tmatches (op_kind name) v) eqn:Em.
        * (* the operand decides: its value is the operator's value *)
          destruct cf as [|cf']; [arith|].
          rewrite (climb_op cf' _ ridx pn v _ r_p pidx_p Gp ltac:(rewrite Kp; reflexivity) Fp Pp), OSp, <- app_assoc.
          apply (R_mono _ (ridx + 1)); [arith|]. apply Hroot; [arith|]. apply (need_le _ _ _ _ Hf0). arith.
        * rewrite (store_ok _ _ _ v _ x Hlenstk Hal).
          replace ((stk0 ++ rev acc) ++ [v]) with (stk0 ++ rev (v :: acc)) by (cbn [rev]; now rewrite app_assoc).
          apply IH.
          -- rewrite lenZ_cons, Z.add_assoc. exact Hprest.
          -- arith.
          -- rewrite lenZ_cons in Hlen. rewrite lenZ_cons. arith.
          -- arith.
          -- exact Hf0.
      + exact Hf.
  Qed.

  Lemma op_try name fast cs : fast_shape fast cs = false -> Forall sub_try cs -> sub_try (TOp name fast cs).
  Proof.
    intros Hfs IH base h inh anc mf mt pidx r KR stk cb Hpl Hs Hcb Hroot f Hf.
    pose proof (ez_range ev) as He. pose proof (gsize_op ev name fast cs Hfs) as Hg.
    rewrite trysem_op by exact Hfs. rewrite compG_op_unfold in Hpl by exact Hfs.
    set (ridx := base + Z.of_nat (gsize (TOp name fast cs)) - 1) in *.
    assert (Hsz : Z.of_nat (gsize (TOp name fast cs)) = Z.of_nat (gsizes ev cs) + ez + 1) by (unfold CompG.ez; arith).
    apply code_at_app in Hpl. destruct Hpl as [Hpa Hpr]. rewrite compG_args_length in Hpr.
    rewrite <- (app_nil_r (emit _ _ _ _)) in Hpr. apply code_at_emit in Hpr. destruct Hpr as (Gev & Gr & Qr & _).
    replace (base + Z.of_nat (gsizes ev cs)) with (ridx - ez) in Gev, Gr, Qr by (unfold ridx; arith).
    replace (ridx - ez + ez) with ridx in Gr, Qr by arith.
    replace (base + Z.of_nat (gsize (TOp name fast cs))) with (ridx + 1) in Hroot by (unfold ridx; arith).
    pose proof (args_try name (lenZ cs) ridx h (mk lastI (KOp name) (lenZ cs) mf mt h r) r pidx KR stk cb
                  Gev Gr eq_refl eq_refl (tflag_mk _ _ _ _ _ _ _) eq_refl Qr Hs Hroot
                  (if inh then [] else (mf, mt) :: anc) cs IH [] base f) as A.
    cbn [rev] in A. rewrite app_nil_r in A. apply A.
    - change (lenZ (@nil value)) with 0. rewrite Z.add_0_r. exact Hpa.
    - unfold ridx. arith.
    - reflexivity.
    - arith.
    - exact Hf.
  Qed.

  Definition tcond_cont (t f : tree) (KR : value -> list obs * mres) (v : value) : list obs * mres :=
    match v with
    | VDNE => KR VDNE
    | VBool true => bindT (trysem t) KR
    | VBool false => bindT (trysem f) KR
    | _ => ([], MErr ECondNotBool)
    end.

  Lemma bindT_tif c t f KR : bindT (trysem (TIf c t f)) KR = bindT (trysem c) (tcond_cont t f KR).
  Proof.
    cbn [Tree.trysem]. destruct (trysem c) as [tr [v|e]]; [|reflexivity].
    destruct v as [z|[]|s|li|ls|si|ss'| | |o]; cbn [bindT tcond_cont]; try (unfold preM; cbn; rewrite app_nil_r; reflexivity);
      try (rewrite bindT_preR; reflexivity); reflexivity.
  Qed.

  Lemma if_try c t f : sub_try c -> sub_try t -> sub_try f -> sub_try (TIf c t f).
  Proof.
    intros IHc IHt IHf base h inh anc mf mt pidx r KR stk cb Hpl Hs Hcb Hroot fu Hfu.
    pose proof (ez_range ev) as He.
    cbn [CompG.compG] in Hpl. cbv zeta in Hpl. cbn [CompG.gsize] in Hcb.
    set (ifidx := base + Z.of_nat (gsize c) + ez) in *.
    set (tb := ifidx + 1) in *.
    set (fiidx := tb + Z.of_nat (gsize t) + ez) in *.
    set (fb := fiidx + 1) in *.
    set (endidx := fb + Z.of_nat (gsize f) - 1) in *.
    assert (Hnext : base + Z.of_nat (gsize (TIf c t f)) = fb + Z.of_nat (gsize f)).
    { cbn [CompG.gsize]. unfold fb, fiidx, tb, ifidx, CompG.ez. arith. }
    rewrite Hnext in Hroot.
    apply code_at_app in Hpl. destruct Hpl as [Hpc Hpl]. rewrite compG_length in Hpl.
    apply code_at_emit in Hpl. destruct Hpl as (Gife & Gif & Qif & Hpl). fold ifidx tb in Gife, Gif, Qif, Hpl.
    apply code_at_app in Hpl. destruct Hpl as [Hpt Hpl]. rewrite compG_length in Hpl.
    apply code_at_emit in Hpl. destruct Hpl as (Gfie & Gfi & _ & Hpf). fold fiidx fb in Gfie, Gfi, Hpf.
    pose proof (nthZ_range _ _ _ Gif) as Rif. pose proof (nthZ_range _ _ _ Gfi) as Rfi.
    pose proof (gsize_pos ev c). pose proof (gsize_pos ev t). pose proof (gsize_pos ev f).
    destruct (compG_last_placed _ _ _ _ _ _ _ _ _ _ _ _ (proj1 Hpf)) as (e & Ge & Hoe). fold endidx in Ge.
    (* pushing onto stk is within the allocation: the fi node writes slot h *)
    assert (Hal : h < alloc P) by (apply SA in Gfi; exact Gfi).
    (* a value that climbs into the if node, from the condition or from a branch, is the value of the `if` *)
    assert (Hup : forall v cf f0 x, (S cb <= cf)%nat -> (need (fb + Z.of_nat (gsize f)) <= f0)%nat ->
              R (fb + Z.of_nat (gsize f)) (climbP cf (tryrun f0) (Some ifidx) v (stk ++ x)) (KR v)).
    { intros v [|cf] f0 x Hcf Hf0; [arith|].
      rewrite (climb_if cf _ ifidx _ _ endidx e v _ r pidx Gif eq_refl (tflag_mk _ _ _ _ _ _ _) Qif Gfi eq_refl Ge), Hoe.
      replace (endidx + 1) with (fb + Z.of_nat (gsize f)) by (unfold endidx; arith). apply Hroot; [arith|exact Hf0]. }
    (* a value of a branch that does not climb is stored in slot h, and the loop goes on behind the `if` *)
    assert (Hon : forall v f0, tmatches r v = false -> (need (fb + Z.of_nat (gsize f)) <= f0)%nat ->
              R (fb + Z.of_nat (gsize f)) (tryrun f0 (fb + Z.of_nat (gsize f)) (stk ++ [v])) (KR v)).
    { intros v f0 Hm Hf0. pose proof (Hroot v cb f0 [] (le_n _) Hf0) as Hr0. unfold afterT in Hr0.
      rewrite Hm, (store_ok _ _ h v stk [] Hs Hal) in Hr0. exact Hr0. }
    rewrite bindT_tif.
    eapply (IHc base h false [] fnone (groot ev c base) ifidx None _ stk (S cb) Hpc Hs).
    - arith.
    - intros v cf f0 x Hcf Hf0. unfold afterT. cbn [tmatches]. destruct (is_dne v) eqn:Ed.
      + (* the condition is unknown: so is the `if` *)
        destruct v; try discriminate. cbn [tcond_cont].
        apply (R_mono _ (fb + Z.of_nat (gsize f))); [unfold fb, fiidx, tb, ifidx; arith|].
        apply Hup; [exact Hcf|]. apply (need_le _ _ _ _ Hf0). unfold fb, fiidx, tb, ifidx. arith.
      + (* the if node *)
        rewrite (store_ok _ _ h v stk x Hs Hal).
        apply (at_nodeT f0 _ _ _ _ Gife Gif Hf0); fold ifidx; intros f1 Hf1.
        rewrite (tryrun_if _ _ _ _ _ Gif eq_refl) by (cbn [osTop mk]; arith).
        assert (Hneed1 : (need (ifidx + 1) <= f1)%nat) by (apply (need_step _ _ _ _ Hf1); arith).
        destruct v as [z|[]|s|li|ls|si|ss'| | |o]; cbn [tcond_cont]; try apply (R_refl _ []); try discriminate.
        * (* condition true: the true branch, then fi jumps over the false branch *)
          fold tb. apply (R_mono _ tb); [unfold tb; arith|].
          eapply (IHt tb h true [] _ _ ifidx r KR stk (S cb) Hpt Hs).
          -- arith.
          -- intros v cf' f2 x' Hcf' Hf2. unfold afterT. destruct (tmatches r v) eqn:Em.
             ++ apply (R_mono _ (fb + Z.of_nat (gsize f))); [unfold fb, fiidx; arith|].
                apply Hup; [exact Hcf'|]. apply (need_le _ _ _ _ Hf2). unfold fb, fiidx. arith.
             ++ rewrite (store_ok _ _ h v stk x' Hs Hal).
                apply (at_nodeT f2 _ _ _ _ Gfie Gfi Hf2); fold fiidx; intros f3 Hf3.
                rewrite (tryrun_fi _ _ _ _ _ Gfi eq_refl) by (cbn [osTop mk]; arith).
                cbn [scIdx mk is_cond_kind]. replace (endidx + 1) with (fb + Z.of_nat (gsize f)) by (unfold endidx; arith).
                apply (R_mono _ (fb + Z.of_nat (gsize f))); [unfold fb; arith|].
                apply Hon; [exact Em|]. apply (need_step _ _ _ _ Hf3); unfold fb; arith.
          -- exact Hneed1.
        * (* condition false: jump behind fi, the false branch *)
          cbn [scIdx mk is_cond_kind]. fold fb. apply (R_mono _ fb); [unfold fb, fiidx, tb; arith|].
          eapply (IHf fb h true [] _ _ ifidx r KR stk (S cb) Hpf Hs).
          -- arith.
          -- intros v cf' f2 x' Hcf' Hf2. unfold afterT. destruct (tmatches r v) eqn:Em.
             ++ apply Hup; assumption.
             ++ rewrite (store_ok _ _ h v stk x' Hs Hal). apply Hon; assumption.
          -- apply (need_le _ _ _ _ Hneed1). unfold fb, fiidx, tb. arith.
    - exact Hfu.
  Qed.

  Theorem try_all : forall t, sub_try t.
  Proof. apply tree_shape_ind; [apply leaf_try|apply fast_try|apply op_try|apply if_try]. Qed.
End T.

(* the whole program: the code sits at index 0, the root has no parent (index -1) and no parent flag, so an unknown
   root value ends the evaluation from inside the climb and any other is stored in slot 0, behind the last node. *)
Theorem tryrun_progG_correct fetch custom cached ev R t : describes ev R ->
  R 0 (tryeval fetch custom cached (progG ev t)) (sem_obs (trysem fetch custom cached t)).
Proof.
  intros HR. set (P := progG ev t).
  assert (Hlen : length (nodes P) = gsize ev t) by (unfold P, progG, codeG; cbn [nodes]; rewrite map_length; apply compG_length).
  unfold tryeval. rewrite <- bindT_ret.
  apply (try_all fetch custom cached P ev R HR (progG_alloc ev t) t 0 0 false [] fnone (groot ev t 0) (-1) None
                 (fun v => ([], MVal v)) [] 0%nat).
  - unfold lastI, P. rewrite progG_len. split; exists [], []; (split; [|reflexivity]); rewrite app_nil_r; reflexivity.
  - reflexivity.
  - lia.
  - intros v cf f x _ Hf. rewrite Z.add_0_l. unfold afterT. cbn [tmatches]. destruct (is_dne v); [apply (d_refl _ _ HR _ [])|].
    rewrite (store_ok P _ _ 0 v [] x eq_refl) by (pose proof (progG_alloc_pos ev t) as Ha; fold P in Ha; lia). cbn [app].
    destruct f as [|f']; [destruct (need_pos _ _ Hf)|].
    rewrite tryrun_end by (unfold P; rewrite progG_len; lia). apply (d_refl _ _ HR _ []).
  - unfold need, lenZ. lia.
Qed.

Theorem tryrun_compile_correct fetch custom cached t :
  tryeval fetch custom cached (compile t) = sem_obs (trysem fetch custom cached t).
Proof.
  rewrite compile_progG. apply (tryrun_progG_correct fetch custom cached false _ t describes_eq).
Qed.

Corollary tryeval_value fetch custom cached t v :
  snd (tryeval fetch custom cached (compile t)) = MVal v <-> snd (trysem fetch custom cached t) = Ok v.
Proof. rewrite tryrun_compile_correct. apply sem_obs_value. Qed.

Print Assumptions tryrun_compile_correct.

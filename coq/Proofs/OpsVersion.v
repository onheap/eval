(* OpsVersion.v — the positional version encoding preserves order and never wraps (C19, version half). *)
Require Import Base Tables Ops OpsArith.
Open Scope Z_scope.
Open Scope list_scope.

Definition B : Z := version_base.

Definition step (a v : Z) : Z := a * B + v.
Definition pad (n : nat) (vs : list Z) : list Z := firstn n (vs ++ repeat 0 n).
Definition value_of (l : list Z) (acc : Z) : Z := fold_left step l acc.

Definition digit (v : Z) : Prop := 0 <= v < B.

Fixpoint lexcmp (a b : list Z) : comparison :=
  match a, b with
  | x :: a', y :: b' => match x ?= y with Eq => lexcmp a' b' | c => c end
  | _, _ => Eq
  end.

Lemma B_pos : 0 < B.
Proof. reflexivity. Qed.
Lemma digit_0 : digit 0.
Proof. split; [apply Z.le_refl|exact B_pos]. Qed.

Lemma pad_length n vs : length (pad n vs) = n.
Proof. unfold pad. rewrite firstn_length, app_length, repeat_length. lia. Qed.

Lemma pad_nil n : pad (S n) [] = 0 :: pad n [].
Proof. reflexivity. Qed.
Lemma pad_cons n v vs : pad (S n) (v :: vs) = v :: pad n vs.
Proof.
  unfold pad. cbn [app firstn]. f_equal.
  replace (repeat 0 (S n)) with (repeat 0 n ++ [0]) by (rewrite <- repeat_cons; reflexivity).
  rewrite app_assoc, firstn_app.
  replace (n - length (vs ++ repeat 0%Z n))%nat with 0%nat by (rewrite app_length, repeat_length; lia).
  apply app_nil_r.
Qed.

Lemma pad_digits n vs : Forall digit vs -> Forall digit (pad n vs).
Proof.
  revert vs. induction n as [|n IH]; intros vs H; [constructor|].
  destruct H as [|v vs Hv H].
  - rewrite pad_nil. constructor; [exact digit_0|apply IH; constructor].
  - rewrite pad_cons. constructor; auto.
Qed.

Lemma radix_lt b a1 a2 x y : a1 < a2 -> 0 <= x < b -> 0 <= y -> a1 * b + x < a2 * b + y.
Proof. nia. Qed.

Lemma radix_bound b p a x : 0 <= a < p -> 0 <= x < b -> 0 <= a * b + x < p * b.
Proof. nia. Qed.

Definition below (k : nat) (a : Z) : Prop := 0 <= a < B ^ Z.of_nat k.

Lemma step_below k a v : below k a -> digit v -> below (S k) (step a v).
Proof.
  intros Ha Hv. unfold below. rewrite Nat2Z.inj_succ, Z.pow_succ_r by apply Nat2Z.is_nonneg.
  rewrite Z.mul_comm. apply radix_bound; assumption.
Qed.

Lemma value_lt a b acc1 acc2 : length a = length b -> Forall digit a -> Forall digit b ->
  acc1 < acc2 -> value_of a acc1 < value_of b acc2.
Proof.
  intros Hl Ha. revert b acc1 acc2 Hl.
  induction Ha as [|x a Hx Ha IH]; intros [|y b] acc1 acc2 Hl Hb Hlt; try discriminate Hl; [exact Hlt|].
  inversion Hb; subst. injection Hl as Hl. cbn [value_of fold_left]. apply IH; [exact Hl|assumption|].
  apply radix_lt; [exact Hlt|exact Hx|apply H1].
Qed.

Lemma value_lex a b acc : length a = length b -> Forall digit a -> Forall digit b ->
  (value_of a acc ?= value_of b acc) = lexcmp a b.
Proof.
  intros Hl Ha. revert b acc Hl.
  induction Ha as [|x a Hx Ha IH]; intros [|y b] acc Hl Hb; try discriminate Hl; cbn [value_of fold_left lexcmp].
  - apply Z.compare_refl.
  - inversion Hb; subst. injection Hl as Hl.
    destruct (Z.compare_spec x y) as [->|Hlt|Hgt].
    + apply IH; auto.
    + apply Z.compare_lt_iff, value_lt; auto. apply Z.add_lt_mono_l, Hlt.
    + apply Z.compare_gt_iff, value_lt; auto. apply Z.add_lt_mono_l, Hgt.
Qed.

Lemma value_below l acc k : Forall digit l -> below k acc -> below (k + length l) (value_of l acc).
Proof.
  intros Hd. revert acc k. induction Hd as [|x l Hx Hd IH]; intros acc k Hacc; cbn [value_of fold_left length].
  - rewrite Nat.add_0_r. exact Hacc.
  - rewrite Nat.add_succ_r. apply (IH _ (S k)), step_below; assumption.
Qed.

Lemma lexcmp_eq a b : length a = length b -> lexcmp a b = Eq <-> a = b.
Proof.
  revert b. induction a as [|x a IH]; intros [|y b] Hl; try discriminate Hl; cbn [lexcmp]; [split; reflexivity|].
  injection Hl as Hl. destruct (Z.compare_spec x y) as [->|H|H].
  - rewrite IH by exact Hl. split; intros E; [f_equal; exact E|injection E; auto].
  - split; [discriminate|]. intros E. injection E as -> _. destruct (Z.lt_irrefl _ H).
  - split; [discriminate|]. intros E. injection E as -> _. destruct (Z.lt_irrefl _ H).
Qed.

Lemma pad_value_lex n va vb : Forall digit va -> Forall digit vb ->
  (value_of (pad n va) 0 ?= value_of (pad n vb) 0) = lexcmp (pad n va) (pad n vb).
Proof. intros Ha Hb. apply value_lex; [rewrite !pad_length; reflexivity|apply pad_digits, Ha|apply pad_digits, Hb]. Qed.

Lemma pad_value_below n vs : Forall digit vs -> below n (value_of (pad n vs) 0).
Proof.
  intros H. rewrite <- (pad_length n vs) at 1.
  apply (value_below _ 0 0); [apply pad_digits, H|split; [apply Z.le_refl|reflexivity]].
Qed.

(* the 4 below is `version_max_len` (tied only by the unfolding that ends `version_encodes`), and 10000^4 < 2^63. A
   component is a `digit` below `version_base` while the loop tests `version_limit`: the generated table gives both the
   same value, and `digit_below_limit` stops checking if it ever does not. *)
Lemma B4_i64 : B ^ 4 < two63.
Proof. reflexivity. Qed.

Lemma Bpow_le4 k : (k <= 4)%nat -> B ^ Z.of_nat k <= B ^ 4.
Proof. intros H. apply Z.pow_le_mono_r; [exact B_pos|lia]. Qed.

Lemma below_wrap k a : (k <= 4)%nat -> below k a -> wrap64 a = a.
Proof.
  intros Hk [H0 Ha]. apply wrap64_id.
  pose proof (Bpow_le4 k Hk). pose proof B4_i64. assert (0 < two63) by reflexivity. lia.
Qed.

Definition parses (arr : list str) (vs : list Z) : Prop := Forall2 (fun s v => parse_int s = Some v) arr vs.

Lemma shift_no_wrap k acc : (S k <= 4)%nat -> below k acc -> wrap64 (acc * version_base) = step acc 0.
Proof.
  intros Hk Ha. rewrite <- (Z.add_0_r (acc * version_base)). change (wrap64 (step acc 0) = step acc 0).
  apply (below_wrap (S k)); [exact Hk|apply step_below; [exact Ha|exact digit_0]].
Qed.

Lemma step_no_wrap k acc v : (S k <= 4)%nat -> below k acc -> digit v ->
  wrap64 (wrap64 (acc * version_base) + v) = step acc v.
Proof.
  intros Hk Ha Hv. rewrite wrap64_add_l. change (wrap64 (step acc v) = step acc v).
  apply (below_wrap (S k)); [exact Hk|apply step_below; assumption].
Qed.

Lemma digit_below_limit v : digit v -> (v >=? version_limit) = false.
Proof. intros [_ H]. rewrite Z.geb_leb. apply Z.leb_gt, (Z.lt_le_trans _ B); [exact H|discriminate]. Qed.

(* k components have been read and n are still to come: acc < B^k and k + n <= 4, so neither wrap64 of the loop
   changes anything *)
Lemma version_loop_ok name n : forall arr vs acc k,
  parses arr vs -> Forall digit vs -> (k + n <= 4)%nat -> below k acc ->
  version_loop name n arr acc = Ok (VInt (value_of (pad n vs) acc)).
Proof.
  induction n as [|n IH]; intros arr vs acc k Hp Hd Hk Hacc; [reflexivity|].
  rewrite Nat.add_succ_r in Hk. assert (Hk1 : (S k <= 4)%nat) by lia. cbn [version_loop]. destruct Hp as [|s v arr vs Hs Hp].
  - rewrite (shift_no_wrap k), pad_nil by assumption.
    apply (IH [] [] _ (S k)); [constructor|constructor|exact Hk|apply step_below; [exact Hacc|exact digit_0]].
  - inversion Hd; subst.
    rewrite Hs, digit_below_limit, (step_no_wrap k), pad_cons by assumption.
    apply (IH arr vs _ (S k)); [assumption|assumption|exact Hk|apply step_below; assumption].
Qed.

Definition valid_len (n : Z) : Prop := version_min_len <= n <= version_max_len.

Lemma version_conv_len m dl s n : valid_len n -> version_conv m dl [VStr s; VInt n] = version_conv m n [VStr s].
Proof.
  intros [Hmin Hmax]. unfold version_conv.
  rewrite Z.gtb_ltb, (proj2 (Z.ltb_ge _ _) Hmax), (proj2 (Z.ltb_ge _ _) Hmin). reflexivity.
Qed.

Theorem version_encodes m dl s vs : parses (split 46 s) vs -> Forall digit vs -> valid_len dl ->
  version_conv m dl [VStr s] = Ok (VInt (value_of (pad (Z.to_nat dl) vs) 0)).
Proof.
  intros Hp Hd [_ Hmax]. apply (version_loop_ok _ _ _ vs 0 0%nat); [exact Hp|exact Hd| |split; [apply Z.le_refl|reflexivity]].
  unfold version_max_len in Hmax. lia.
Qed.

Definition bad_component (s : str) : Prop :=
  parse_int s = None \/ exists v, parse_int s = Some v /\ version_limit <= v.

Lemma version_loop_rejects name n : forall arr acc,
  Exists bad_component (firstn n arr) -> version_loop name n arr acc = Err (EExec name).
Proof.
  induction n as [|n IH]; intros arr acc H; [inversion H|].
  destruct arr as [|a arr]; [inversion H|].
  cbn [firstn] in H. cbn [version_loop]. inversion H as [x l Hbad|x l Hrest]; subst.
  - destruct Hbad as [-> | [v [-> Hv]]]; [reflexivity|]. rewrite Z.geb_leb. apply Z.leb_le in Hv. rewrite Hv. reflexivity.
  - destruct (parse_int a) as [v|]; [|reflexivity]. destruct (v >=? version_limit); [reflexivity|]. apply IH, Hrest.
Qed.

Theorem version_rejects m dl s : Exists bad_component (firstn (Z.to_nat dl) (split 46 s)) ->
  version_conv m dl [VStr s] = Err (EExec (mname (vmode_key m))).
Proof. apply version_loop_rejects. Qed.

Theorem version_bad_len m dl s n : ~ valid_len n -> version_conv m dl [VStr s; VInt n] = Err (EExec (mname (vmode_key m))).
Proof.
  intros Hn. unfold version_conv.
  destruct (Z.gtb_spec n version_max_len) as [|Hmax]; [reflexivity|].
  destruct (Z.ltb_spec n version_min_len) as [|Hmin]; [reflexivity|].
  destruct Hn. split; assumption.
Qed.

Theorem version_count m dl ps : length ps <> 1%nat -> length ps <> 2%nat -> version_conv m dl ps = Err (ECount (mname (vmode_key m))).
Proof.
  intros H1 H2. destruct ps as [|a [|b [|c ps]]]; [reflexivity|destruct H1; reflexivity|destruct H2; reflexivity|].
  unfold version_conv. destruct b; reflexivity.
Qed.

Fixpoint join (sep : N) (l : list str) : str :=
  match l with [] => [] | [a] => a | a :: l' => a ++ sep :: join sep l' end.

Lemma split_on_skip sep cur a s : ~ In sep a -> split_on sep cur (a ++ s) = split_on sep (rev a ++ cur) s.
Proof.
  revert cur. induction a as [|c a IH]; intros cur H; [reflexivity|].
  cbn [app split_on rev]. destruct (N.eqb_spec c sep) as [->|Hne]; [destruct H; left; reflexivity|].
  rewrite IH by (intros Hin; apply H; right; exact Hin). rewrite <- app_assoc. reflexivity.
Qed.

Theorem split_join sep l : l <> [] -> Forall (fun a => ~ In sep a) l -> split sep (join sep l) = l.
Proof.
  unfold split. intros Hne Hf. induction Hf as [|a l Ha Hf IH]; [congruence|]. destruct l as [|b l].
  - cbn [join]. rewrite <- (app_nil_r a) at 1. rewrite split_on_skip by exact Ha.
    cbn [split_on]. rewrite app_nil_r, rev_involutive. reflexivity.
  - change (join sep (a :: b :: l)) with (a ++ sep :: join sep (b :: l)).
    rewrite split_on_skip by exact Ha. cbn [split_on]. rewrite N.eqb_refl, app_nil_r, rev_involutive.
    f_equal. apply IH. congruence.
Qed.

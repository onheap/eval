(* Limits.v — what an accepted program satisfies (C09): the node count is the tree size and at most 32767,
   every operator has at most 127 operands, and the program length, every node's osTop and childCnt and the
   stack size fit the narrow integer types the Go code stores them in (int16, int16, int8, int16), so the model's
   unbounded integers and Go's fixed-width ones agree there on accepted programs. *)
Require Import Base Tables Tree Opt Flat CompFacts CompG EvalTop SemFacts ListFacts.
From Coq Require Import ZifyBool.
Open Scope Z_scope.
Open Scope list_scope.

Fixpoint check_list (cs : list tree) (acc : Z) : cerr + Z :=
  match cs with
  | [] => let s := acc + 1 in if max_nodes <? s then inl (CTooManyNodes s) else inr s
  | c :: cs' => match check c with inl e => inl e | inr n => check_list cs' (acc + n) end
  end.

Lemma check_op name fast cs :
  check (TOp name fast cs) = if max_children <? lenZ cs then inl (CTooManyParams (lenZ cs)) else check_list cs 0.
Proof.
  cbn [check]. destruct (max_children <? lenZ cs); [reflexivity|].
  generalize 0 as acc. induction cs as [|c cs IH]; intros acc; cbn [check_list]; [reflexivity|].
  destruct (check c); [reflexivity|]. apply IH.
Qed.

Fixpoint ops_ok (t : tree) : Prop :=
  match t with
  | TConst _ | TVar _ _ => True
  | TOp _ _ cs => lenZ cs <= max_children /\ (fix all (l : list tree) : Prop := match l with [] => True | c :: l' => ops_ok c /\ all l' end) cs
  | TIf c t f => ops_ok c /\ ops_ok t /\ ops_ok f
  end.

Lemma ops_ok_op name fast cs : ops_ok (TOp name fast cs) <-> lenZ cs <= max_children /\ Forall ops_ok cs.
Proof.
  cbn [ops_ok]. split; intros [H1 H2]; (split; [exact H1|]); clear H1.
  - induction cs as [|c cs IH]; [constructor|]. destruct H2. constructor; auto.
  - induction H2 as [|c cs Hc _ IH]; [exact I|]. split; assumption.
Qed.

Definition refused (e : cerr) : Prop :=
  match e with CTooManyParams n => max_children < n | CTooManyNodes n => max_nodes < n | CTooManyEventNodes _ => False end.

Lemma check_spec t :
  match check t with
  | inr n => n = Z.of_nat (size t) /\ n <= max_nodes /\ ops_ok t
  | inl e => refused e
  end.
Proof.
  induction t as [v|nm k|name fast cs IH|c t f IHc IHt IHf] using tree_ind2.
  - cbn [check size ops_ok]. unfold max_nodes. repeat split; arith.
  - cbn [check size ops_ok]. unfold max_nodes. repeat split; arith.
  - rewrite check_op. destruct (max_children <? lenZ cs) eqn:Hw; [cbn [refused]; lia|].
    assert (E : forall acc, match check_list cs acc with
                            | inr s => s = acc + Z.of_nat (sizes cs) + 1 /\ s <= max_nodes /\ Forall ops_ok cs
                            | inl e => refused e
                            end).
    { clear Hw. induction IH as [|c cs0 Hc _ IHcs]; intros acc; cbn [check_list].
      - cbv zeta. destruct (max_nodes <? acc + 1) eqn:E; cbn [refused sizes fold_right]; [lia|]. repeat split; try lia. constructor.
      - destruct (check c) as [e|m]; [exact Hc|]. destruct Hc as (Hm & _ & Ho). specialize (IHcs (acc + m)).
        destruct (check_list cs0 (acc + m)) as [e|s]; [exact IHcs|]. destruct IHcs as (H1 & H2 & H3).
        cbn [sizes fold_right]. fold (sizes cs0). repeat split; try arith. constructor; assumption. }
    specialize (E 0). destruct (check_list cs 0) as [e|s]; [exact E|]. destruct E as (H1 & H2 & H3).
    cbn [size]. fold (sizes cs). split; [arith|split; [arith|]]. apply ops_ok_op. split; [lia|exact H3].
  - cbn [check]. destruct (check c) as [|nc]; [exact IHc|]. destruct (check t) as [|nt]; [exact IHt|].
    destruct (check f) as [|nf]; [exact IHf|]. cbv zeta. destruct (max_nodes <? nc + nt + nf + 1 + 1) eqn:E; [cbn [refused]; lia|].
    destruct IHc as (? & ? & ?), IHt as (? & ? & ?), IHf as (? & ? & ?). cbn [size ops_ok]. split; [arith|split; [lia|]]. repeat split; assumption.
Qed.

Theorem check_accepts t : forall n, check t = inr n ->
  n = Z.of_nat (size t) /\ n <= max_nodes /\ ops_ok t.
Proof. intros n H. pose proof (check_spec t) as S. rewrite H in S. exact S. Qed.

(* rejection is for exactly the two stated reasons *)
Theorem check_rejects t e : check t = inl e ->
  match e with CTooManyParams n => max_children < n | CTooManyNodes n => max_nodes < n | CTooManyEventNodes _ => False end.
Proof. intros H. pose proof (check_spec t) as S. rewrite H in S. exact S. Qed.

Definition os_lo (code : list (node * Z)) : Prop := forall k nd p, nth_error code k = Some (nd, p) -> -1 <= osTop nd.

Definition fits16 (z : Z) : Prop := -32768 <= z <= 32767.
Definition fits8 (z : Z) : Prop := -128 <= z <= 127.

(* no slot is below -1 (an `if` node at height 0 announces -1), and an operand count is that of an accepted operator *)
Lemma comp_fields last t : ops_ok t -> forall base h inh anc mf mt pidx r, 0 <= h ->
  Forall (fun x => -1 <= osTop (fst x) /\ 0 <= childCnt (fst x) <= max_children) (comp last t base h inh anc mf mt pidx r).
Proof.
  induction t as [v|nm k|name fast cs IH|c t f IHc IHt IHf] using tree_ind2; intros Hok base h inh anc mf mt pidx r Hh.
  - repeat constructor; cbn; unfold max_children; arith.
  - repeat constructor; cbn; unfold max_children; arith.
  - apply ops_ok_op in Hok. destruct Hok as [Hw Hcs]. destruct (fast_shape fast cs) eqn:Hfs.
    + destruct (fast_shape_inv _ _ Hfs) as (a & b & -> & Ha & Hb & ->).
      rewrite comp_fast_unfold by exact Hfs. cbv zeta. repeat constructor; cbn; unfold max_children; arith.
    + rewrite comp_op_unfold by exact Hfs. clear Hfs. apply Forall_app. split.
      * generalize (op_kind name) (lenZ cs) (base + Z.of_nat (size (TOp name fast cs)) - 1) (if inh then [] else (mf, mt) :: anc).
        intros kk n ridx anc'. clear Hw. revert base h Hh.
        induction IH as [|c0 cs0 Hc _ IHcs]; intros b hh Hhh; cbn [comp_args]; [constructor|].
        inversion Hcs; subst. cbv zeta. apply Forall_app. split; [apply Hc|apply IHcs]; first [assumption|arith].
      * constructor; [|constructor]. cbn [osTop childCnt mk fst]. split; [arith|]. split; [apply lenZ_nonneg|exact Hw].
  - destruct Hok as (Hc & Ht & Hf). cbn [comp]. cbv zeta.
    repeat (apply Forall_app; split); try (repeat constructor; cbn [osTop childCnt mk fst]; unfold max_children; arith); auto.
Qed.

(* `unfold … max_nodes, max_children` below is where the regenerated limits meet the int16 / int8 widths: the proof
   is meant to break when the table changes *)
Theorem accepted_in_range t n : check t = inr n ->
  let P := compile t in
  lenZ (nodes P) = n /\ n <= max_nodes /\
  Forall (fun nd => fits16 (osTop nd) /\ fits8 (childCnt nd)) (nodes P) /\
  fits16 (maxStack P).
Proof.
  intros H P. destruct (check_accepts t n H) as (Hn & Hmax & Hok).
  set (code := comp (Z.of_nat (size t) - 1) t 0 0 false [] fnone (root_idx t 0) (-1) None).
  assert (Hos : Forall (fun x : node * Z => -1 <= osTop (fst x) <= n - 1 /\ 0 <= childCnt (fst x) <= max_children) code).
  { pose proof (comp_fields (Z.of_nat (size t) - 1) t Hok 0 0 false [] fnone (root_idx t 0) (-1) None (Z.le_refl 0)) as Hf.
    rewrite Forall_forall in *. intros [nd p] Hin. destruct (Hf _ Hin) as [Hlo Hcc].
    destruct (In_nth_error _ _ Hin) as [k Hk]. pose proof (comp_os_ok _ _ _ _ _ _ _ _ _ _ _ _ _ Hk) as Hup.
    assert (k < length code)%nat by (apply nth_error_Some; congruence). unfold code in *. rewrite comp_length in *.
    cbn [fst] in *. arith. }
  split; [unfold P; rewrite compile_len; arith|]. split; [exact Hmax|]. unfold fits16, fits8, max_nodes, max_children in *. split.
  - apply Forall_map. eapply Forall_impl; [|exact Hos]. cbv beta. arith.
  - assert (Hms : forall l d, d <= n -> Forall (fun x => x <= n) l -> max_list l d <= n).
    { unfold max_list. induction l as [|x l IHl]; intros d Hd Hl; cbn [fold_left]; [exact Hd|]. inversion Hl; subst. apply IHl; [arith|assumption]. }
    pose proof (size_pos t). pose proof (max_list_le (map (fun nd : node * Z => osTop (fst nd) + 1) code) 1) as Hlo.
    pose proof (Hms (map (fun nd : node * Z => osTop (fst nd) + 1) code) 1) as Hhi. cbn [maxStack P compile]. fold code.
    split; [arith|]. eapply Z.le_trans; [apply Hhi; [arith|]|arith].
    apply Forall_map. eapply Forall_impl; [|exact Hos]. cbv beta. arith.
Qed.

(* ListFacts.v — facts about lists that belong to no part of the model: `Forall` / `Forall2` / `existsb` transfers, and
   arithmetic on `lenZ`, with the tactic `arith` for the long inductions. Predicates over trees are written with a nested `all` over the operand list (the guard
   checker wants it so); proofs use them through `Forall` (`all_Forall`). *)
Require Import Base.
From Coq Require Import Lia.
Open Scope Z_scope.

(* `lia` pays for every hypothesis in sight, arithmetic or not. In the long inductions over the compiler's
   recursion the context holds induction hypotheses, invariants and placement facts; `arith` throws away what
   is not a comparison or an equation between numbers (or a conjunction, for ranges) and then calls `lia`. *)
Ltac arith :=
  repeat match goal with
         | H : ?T |- _ =>
           lazymatch T with
           | @eq Z _ _ => fail | @eq nat _ _ => fail
           | Z.le _ _ => fail | Z.lt _ _ => fail | le _ _ => fail | lt _ _ => fail
           | _ /\ _ => fail
           | _ => clear H
           end
         end;
  lia.

Lemma all_Forall {A} (P : A -> Prop) l :
  (fix all (l : list A) : Prop := match l with [] => True | a :: l' => P a /\ all l' end) l <-> Forall P l.
Proof.
  induction l as [|a l IH]; [split; constructor|]. rewrite IH.
  split; [intros [H1 H2]; constructor; assumption|intros H; inversion H; auto].
Qed.

Lemma Forall_mp {A} (P Q : A -> Prop) l : Forall (fun x => P x -> Q x) l -> Forall P l -> Forall Q l.
Proof. induction 1; inversion 1; constructor; auto. Qed.

Lemma sum_ext_Forall {A} (f g : A -> nat) l : Forall (fun x => f x = g x) l ->
  fold_right (fun x a => (f x + a)%nat) 0%nat l = fold_right (fun x a => (g x + a)%nat) 0%nat l.
Proof. induction 1 as [|x l Hx _ IH]; cbn [fold_right]; [reflexivity|]. rewrite Hx, IH. reflexivity. Qed.

Lemma Forall2_map_r {A B} (R : A -> B -> Prop) (g : A -> B) l : Forall (fun x => R x (g x)) l -> Forall2 R l (map g l).
Proof. induction 1; constructor; assumption. Qed.

Lemma Forall2_Forall {A B} {R : A -> B -> Prop} {P : A -> Prop} {Q : B -> Prop} {l l'} :
  (forall x y, R x y -> P x -> Q y) -> Forall2 R l l' -> Forall P l -> Forall Q l'.
Proof. intros H. induction 1; intros HP; inversion HP; constructor; eauto. Qed.

Lemma firstn_skipn_app {A} (a b : list A) : firstn (length a) (a ++ b) = a /\ skipn (length a) (a ++ b) = b.
Proof. rewrite firstn_app, skipn_app, firstn_all, skipn_all, Nat.sub_diag. split; [apply app_nil_r|reflexivity]. Qed.

Lemma Forall2_rev {A B} (R : A -> B -> Prop) l1 l2 : Forall2 R l1 l2 -> Forall2 R (rev l1) (rev l2).
Proof. induction 1; cbn; [constructor|]. apply Forall2_app; [assumption|repeat constructor; assumption]. Qed.

Lemma existsb_rev {A} (f : A -> bool) l : existsb f (rev l) = existsb f l.
Proof. induction l as [|a l IH]; [reflexivity|]. cbn [rev existsb]. rewrite existsb_app, IH. cbn [existsb]. rewrite orb_false_r. apply orb_comm. Qed.

Lemma existsb_none {A} (f : A -> bool) l : Forall (fun a => f a = false) l -> existsb f l = false.
Proof. induction 1 as [|a l Ha _ IH]; [reflexivity|]. cbn [existsb]. rewrite Ha, IH. reflexivity. Qed.

Lemma lenZ_app {A} (a b : list A) : lenZ (a ++ b) = lenZ a + lenZ b.
Proof. unfold lenZ. rewrite app_length. lia. Qed.
Lemma lenZ_cons {A} (x : A) l : lenZ (x :: l) = lenZ l + 1.
Proof. unfold lenZ. cbn [length]. lia. Qed.
Lemma lenZ_nonneg {A} (l : list A) : 0 <= lenZ l.
Proof. unfold lenZ. lia. Qed.
Lemma lenZ_rev {A} (l : list A) : lenZ (rev l) = lenZ l.
Proof. unfold lenZ. rewrite rev_length. reflexivity. Qed.
Lemma lenZ_map {A B} (f : A -> B) l : lenZ (map f l) = lenZ l.
Proof. unfold lenZ. rewrite map_length. reflexivity. Qed.

Lemma Forall2_map_eq {A B C} {R : A -> B -> Prop} (f : A -> C) (g : B -> C) {l l'} :
  (forall x y, R x y -> g y = f x) -> Forall2 R l l' -> map g l' = map f l.
Proof. intros H. induction 1; cbn [map]; [reflexivity|]. f_equal; auto. Qed.

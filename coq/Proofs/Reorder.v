(* Reorder.v — C16: reordering is cost-directed, stable and confined to and/or operands. *)
Require Import Base Tables Ops Tree Opt OpsList.
From Coq Require Import Permutation.
Open Scope Z_scope.
Open Scope list_scope.

Inductive before {A} : list A -> A -> A -> Prop :=
  | bf_here a b l : In b l -> before (a :: l) a b
  | bf_later x a b l : before l a b -> before (x :: l) a b.

Lemma before_in {A} (l : list A) a b : before l a b -> In a l /\ In b l.
Proof. induction 1 as [a b l H | x a b l _ [IH1 IH2]]; cbn; auto. Qed.

Lemma before_insert {A} (l1 l2 : list A) x a b : before (l1 ++ x :: l2) a b <->
  before (l1 ++ l2) a b \/ (a = x /\ In b l2) \/ (b = x /\ In a l1).
Proof.
  induction l1 as [|y l1 IH]; cbn [app]; split.
  - intros H. inversion H; auto.
  - intros [H|[[-> H]|[_ []]]]; [apply bf_later|apply bf_here]; exact H.
  - intros H. inversion H as [? ? ? Hin|? ? ? ? Hb]; subst.
    + apply in_elt_inv in Hin. destruct Hin as [->|Hin]; [right; right; split; [reflexivity|left; reflexivity]|left; apply bf_here; exact Hin].
    + apply IH in Hb. destruct Hb as [Hb|[Hb|[-> Ha]]]; [left; apply bf_later; exact Hb|auto|right; right; split; [reflexivity|right; exact Ha]].
  - intros [H|[[-> Hb]|[-> [->|Ha]]]]; [|apply bf_later, IH; auto|apply bf_here, in_elt|apply bf_later, IH; auto].
    inversion H as [? ? ? Hin|]; subst; [apply bf_here|apply bf_later, IH; auto].
    apply in_or_app. apply in_app_or in Hin. destruct Hin; [left|right; right]; assumption.
Qed.

Section Sort.
  Variable key : tree -> Z.

  Lemma insert_split x l : exists l1 l2, l = l1 ++ l2 /\ insert_by key x l = l1 ++ x :: l2 /\
    Forall (fun y => key y < key x) l1 /\ match l2 with [] => True | y :: _ => key x <= key y end.
  Proof.
    induction l as [|y l IH]; cbn [insert_by].
    - exists [], []. repeat split; constructor.
    - destruct (key y <? key x) eqn:E.
      + destruct IH as (l1 & l2 & -> & -> & H1 & H2). exists (y :: l1), l2. repeat split; [constructor; [lia|exact H1]|exact H2].
      + exists [], (y :: l). repeat split; [constructor|lia].
  Qed.

  Definition sorted (l : list tree) : Prop := forall a b, before l a b -> key a <= key b.

  Lemma sorted_from l y l' : sorted l -> l = y :: l' -> forall z, In z l' -> key y <= key z.
  Proof. intros H -> z Hz. apply H. apply bf_here. exact Hz. Qed.

  Lemma sort_perm l : Permutation (sort_by key l) l.
  Proof.
    unfold sort_by. induction l as [|x l IH]; cbn [fold_right]; [constructor|].
    destruct (insert_split x (fold_right (insert_by key) [] l)) as (l1 & l2 & E & -> & _ & _).
    rewrite E in IH. apply Permutation_sym, Permutation_cons_app, Permutation_sym, IH.
  Qed.

  Theorem sort_before l a b : before (sort_by key l) a b <->
    (In a l /\ In b l /\ key a < key b) \/ (key a = key b /\ before l a b).
  Proof.
    revert a b. induction l as [|x l IH]; intros a b.
    - split; [intros H; inversion H|intros [([] & _)|(_ & H)]; inversion H].
    - pose proof (sort_perm l) as P. change (sort_by key (x :: l)) with (insert_by key x (sort_by key l)).
      destruct (insert_split x (sort_by key l)) as (l1 & l2 & E & -> & H1 & H2). rewrite E in IH, P. rewrite Forall_forall in H1.
      (* by the induction hypothesis the tail is sorted: all of l2 is as dear as x *)
      assert (H2' : forall z, In z l2 -> key x <= key z).
      { destruct l2 as [|y l2]; [intros z []|]. intros z [<-|Hz]; [exact H2|].
        assert (Hyz : before (l1 ++ y :: l2) y z) by (apply before_insert; right; left; split; [reflexivity|exact Hz]).
        apply IH in Hyz. lia. }
      assert (Hin : forall z, In z l <-> In z l1 \/ In z l2).
      { intros z. rewrite <- in_app_iff. split; apply Permutation_in; [symmetry|]; exact P. }
      rewrite before_insert, (IH a b). split.
      + intros [[(Ia & Ib & Hk)|(Hk & Hb)]|[(-> & Hb)|(-> & Ha)]].
        * left. split; [right; exact Ia|split; [right; exact Ib|exact Hk]].
        * right. split; [exact Hk|apply bf_later; exact Hb].
        * pose proof (H2' b Hb). assert (In b l) by (apply Hin; auto).
          destruct (Z.eq_dec (key x) (key b)); [right; split; [assumption|apply bf_here; assumption]|left; split; [left; reflexivity|split; [right; assumption|lia]]].
        * pose proof (H1 a Ha). left. split; [right; apply Hin; auto|split; [left; reflexivity|assumption]].
      + intros [(Ia & Ib & Hk)|(Hk & Hb)].
        * destruct Ia as [<-|Ia]; destruct Ib as [<-|Ib]; [lia| | |auto].
          -- apply Hin in Ib. destruct Ib as [Ib|Ib]; [specialize (H1 b Ib); lia|auto].
          -- apply Hin in Ia. destruct Ia as [Ia|Ia]; [auto|specialize (H2' a Ia); lia].
        * inversion Hb as [? ? ? Ib|? ? ? ? Hb']; subst; [|auto].
          apply Hin in Ib. destruct Ib as [Ib|Ib]; [specialize (H1 b Ib); lia|auto].
  Qed.

  Lemma sort_sorted l : sorted (sort_by key l).
  Proof. intros a b H. apply sort_before in H. destruct H as [(_ & _ & H)|(H & _)]; lia. Qed.

  Lemma sort_stable l a b : before (sort_by key l) a b -> key a = key b -> before l a b.
  Proof. intros H Hk. apply sort_before in H. destruct H as [(_ & _ & H)|(_ & H)]; [lia|exact H]. Qed.

  Lemma sort_keeps_equal l a b : before l a b -> key a = key b -> before (sort_by key l) a b.
  Proof. intros H Hk. apply sort_before. auto. Qed.

  Lemma sort_orders l a b : In a l -> In b l -> key a < key b -> before (sort_by key l) a b.
  Proof. intros Ha Hb Hk. apply sort_before. auto. Qed.
End Sort.

Section Confined.
  Variable sorter : list tree -> list tree.
  Hypothesis sorter_perm : forall l, Permutation (sorter l) l.

  Theorem reorder_op name fast cs :
    exists cs', reorder_with sorter (TOp name fast cs) = TOp name fast cs' /\
                Permutation cs' (map (reorder_with sorter) cs) /\
                (is_boolop name = false -> cs' = map (reorder_with sorter) cs).
  Proof.
    cbn [reorder_with]. destruct (is_boolop name).
    - eexists. split; [reflexivity|]. split; [apply sorter_perm|discriminate].
    - eexists. split; [reflexivity|]. split; [apply Permutation_refl|reflexivity].
  Qed.

  Theorem reorder_if c t f :
    reorder_with sorter (TIf c t f) = TIf (reorder_with sorter c) (reorder_with sorter t) (reorder_with sorter f).
  Proof. reflexivity. Qed.

  Theorem reorder_leaf t : is_leaf t = true -> reorder_with sorter t = t.
  Proof. destruct t; try discriminate; reflexivity. Qed.
End Confined.

Definition set_cost (cfg : config) (x : str) (c : Z) : config :=
  {| enabled := enabled cfg; stateless := stateless cfg; registered := registered cfg;
     costs := (x, c) :: costs cfg; events := events cfg |}.

Fixpoint mentions (x : str) (t : tree) : bool :=
  match t with
  | TConst _ => false
  | TVar n _ => str_eqb n x
  | TOp name _ cs => str_eqb name x || existsb (mentions x) cs
  | TIf c t f => mentions x c || mentions x t || mentions x f
  end.

Lemma sumZ_mono (f g : tree -> Z) (m : tree -> bool) cs : Forall (fun c => f c <= g c /\ (m c = false -> f c = g c)) cs ->
  sumZ (map f cs) <= sumZ (map g cs) /\ (existsb m cs = false -> sumZ (map f cs) = sumZ (map g cs)).
Proof.
  unfold sumZ. induction 1 as [|c cs [H1 H2] _ [IH1 IH2]]; [split; reflexivity|]. cbn [map fold_right existsb]. split; [lia|].
  intros E. apply orb_false_iff in E. destruct E as [E1 E2]. rewrite (H2 E1), (IH2 E2). reflexivity.
Qed.

Lemma sumZ_mono_at (f g : tree -> Z) cs c : (forall c, f c <= g c) -> In c cs ->
  sumZ (map f cs) + (g c - f c) <= sumZ (map g cs).
Proof.
  intros H. induction cs as [|c0 cs IH]; intros Hin; [destruct Hin|].
  assert (Hs : sumZ (map f cs) <= sumZ (map g cs)) by (apply (sumZ_mono f g (fun _ => true)), Forall_forall; intros c1 _; split; [apply H|discriminate]).
  pose proof (H c0). unfold sumZ in *. cbn [map fold_right]. destruct Hin as [->|Hin]; [|specialize (IH Hin)]; lia.
Qed.

Section Mono.
  Variable cfg : config.
  Variable x : str.
  (* an entry under one of the two default keys is the cost of every name without an entry of its own: raising it would
     raise operands that do not mention it *)
  Hypothesis x_not_default : str_eqb x (ss cost_variable_key) = false /\ str_eqb x (ss cost_operator_key) = false.

  Lemma name_cost_other c isv n : str_eqb n x = false -> name_cost (set_cost cfg x c) isv n = name_cost cfg isv n.
  Proof.
    intros H. unfold name_cost, set_cost. cbn [costs assoc_str]. rewrite H.
    destruct x_not_default as [H1 H2]. rewrite (str_eqb_sym (ss cost_variable_key)), H1, (str_eqb_sym (ss cost_operator_key)), H2. reflexivity.
  Qed.

  Lemma name_cost_self c isv : name_cost (set_cost cfg x c) isv x = c.
  Proof. unfold name_cost, set_cost. cbn [costs assoc_str]. rewrite str_eqb_refl. reflexivity. Qed.

  Theorem cost_monotone c1 c2 : c1 <= c2 -> forall t,
    cost (set_cost cfg x c1) t <= cost (set_cost cfg x c2) t /\
    (mentions x t = false -> cost (set_cost cfg x c1) t = cost (set_cost cfg x c2) t).
  Proof.
    intros Hc. induction t as [v|n k|name fast cs IH|c t f IHc IHt IHf] using tree_ind2; cbn [cost mentions].
    - split; reflexivity.
    - destruct (str_eqb n x) eqn:E.
      + apply list_eqb_N_eq in E. subst n. rewrite !name_cost_self. split; [lia|discriminate].
      + rewrite !name_cost_other by exact E. split; [lia|reflexivity].
    - destruct (sumZ_mono _ _ _ cs IH) as [Hs1 Hs2]. destruct (str_eqb name x) eqn:E.
      + apply list_eqb_N_eq in E. subst name. rewrite !name_cost_self. split; [lia|discriminate].
      + rewrite !name_cost_other by exact E. split; [lia|]. cbn [orb]. intros E2. rewrite (Hs2 E2). reflexivity.
    - destruct IHc as [C1 C2], IHt as [T1 T2], IHf as [F1 F2]. split; [lia|].
      intros E. apply orb_false_iff in E. destruct E as [E E3]. apply orb_false_iff in E. destruct E as [E1 E2].
      rewrite (C2 E1), (T2 E2), (F2 E3). reflexivity.
  Qed.

  Lemma cost_ge0 c t : 0 <= c -> cost (set_cost cfg x 0) t <= cost (set_cost cfg x c) t.
  Proof. intros Hc. apply cost_monotone. exact Hc. Qed.

  Theorem cost_grows t : mentions x t = true -> exists m, forall c, 0 <= c -> c + m <= cost (set_cost cfg x c) t.
  Proof.
    (* m: the cost of t with everything off the path to one occurrence of x taken at cost 0; of the branches of an `if`
       only the one on the path counts, the other may well be the dearer one *)
    induction t as [v|n k|name fast cs IH|c t f IHc IHt IHf] using tree_ind2; cbn [mentions]; intros Hm.
    - discriminate.
    - apply list_eqb_N_eq in Hm. subst n. exists cost_funccall. intros c Hc. cbn [cost]. rewrite name_cost_self. lia.
    - set (k := if fast then cost_funccall else cost_loops * (lenZ cs + 1) + cost_funccall). destruct (str_eqb name x) eqn:E.
      + apply list_eqb_N_eq in E. subst name. exists (k + sumZ (map (cost (set_cost cfg x 0)) cs)).
        intros c Hc. cbn [cost]. fold k. rewrite name_cost_self.
        pose proof (proj1 (sumZ_mono _ _ (mentions x) cs (proj2 (Forall_forall _ _) (fun t _ => cost_monotone 0 c Hc t)))) as Hs. clear -Hs. lia.
      + cbn [orb] in Hm. apply existsb_exists in Hm. destruct Hm as [ci [Hin Hci]].
        rewrite Forall_forall in IH. destruct (IH ci Hin Hci) as [mi Hmi].
        exists (k + name_cost cfg false name + sumZ (map (cost (set_cost cfg x 0)) cs) - cost (set_cost cfg x 0) ci + mi).
        intros c Hc. cbn [cost]. fold k. rewrite name_cost_other by exact E.
        pose proof (sumZ_mono_at _ _ cs ci (fun t => cost_ge0 c t Hc) Hin) as Hs. specialize (Hmi c Hc). clear -Hs Hmi. lia.
    - cbn [cost]. generalize (cost_loops * cost_cond_loops). intros k.
      apply orb_true_iff in Hm. destruct Hm as [Hm|Hm]; [apply orb_true_iff in Hm; destruct Hm as [Hm|Hm]|].
      + destruct (IHc Hm) as [m Hm']. exists (k + m + Z.max (cost (set_cost cfg x 0) t) (cost (set_cost cfg x 0) f)).
        intros c0 Hc. specialize (Hm' c0 Hc). pose proof (cost_ge0 c0 t Hc). pose proof (cost_ge0 c0 f Hc). lia.
      + destruct (IHt Hm) as [m Hm']. exists (k + cost (set_cost cfg x 0) c + m).
        intros c0 Hc. specialize (Hm' c0 Hc). pose proof (cost_ge0 c0 c Hc). lia.
      + destruct (IHf Hm) as [m Hm']. exists (k + cost (set_cost cfg x 0) c + m).
        intros c0 Hc. specialize (Hm' c0 Hc). pose proof (cost_ge0 c0 c Hc). lia.
  Qed.

  Notation sort1 c := (sort_by (cost (set_cost cfg x c))).

  Theorem raise_never_moves_ahead c1 c2 l a b : c1 <= c2 -> mentions x a = true -> mentions x b = false ->
    before (sort1 c2 l) a b -> before (sort1 c1 l) a b.
  Proof.
    intros Hc _ Hb H. destruct (cost_monotone c1 c2 Hc a) as [Ma _]. destruct (cost_monotone c1 c2 Hc b) as [_ Mb]. specialize (Mb Hb).
    apply sort_before in H. apply sort_before. destruct H as [(Ia & Ib & Hk)|(Hk & H)]; [left; split; [exact Ia|split; [exact Ib|lia]]|].
    destruct (before_in _ _ _ H) as [Ia Ib].
    destruct (Z.eq_dec (cost (set_cost cfg x c1) a) (cost (set_cost cfg x c1) b)); [right; split; assumption|left; split; [exact Ia|split; [exact Ib|lia]]].
  Qed.

  Theorem others_keep_order c1 c2 l a b : c1 <= c2 -> mentions x a = false -> mentions x b = false ->
    (before (sort1 c1 l) a b <-> before (sort1 c2 l) a b).
  Proof.
    intros Hc Ha Hb. rewrite !sort_before.
    rewrite (proj2 (cost_monotone c1 c2 Hc a) Ha), (proj2 (cost_monotone c1 c2 Hc b) Hb). reflexivity.
  Qed.

  Theorem large_cost_last a b : mentions x a = true -> mentions x b = false ->
    exists C, forall c, C <= c -> forall l, In a l -> In b l -> before (sort1 c l) b a.
  Proof.
    intros Ha Hb. destruct (cost_grows a Ha) as [m Hm].
    exists (Z.max 0 (cost (set_cost cfg x 0) b - m + 1)). intros c Hc l Ia Ib.
    apply sort_orders; try assumption. assert (H0 : 0 <= c) by (clear -Hc; lia).
    pose proof (proj2 (cost_monotone 0 c H0 b) Hb) as Mb. specialize (Hm c H0). clear -Hc Mb Hm. lia.
  Qed.
End Mono.

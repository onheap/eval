(* C14 — Whitespace, comments and IndentByParentheses never change meaning.
   Statements about `lex`, the model of parser.lex (compared with VerifLex on every run). Proofs: LexProofs.v and the
   files named below; `C14_leading_only` and the corollaries about `parse_source` and the directive comments are proved here.
   Layout invariance of the lexer is proved (white-space separators, comments anywhere between tokens), and so is the
   formatter: for every source the lexer accepts, IndentByParentheses returns a text with the same tokens and comments
   (FormatProofs.v), and a source the lexer rejects is still rejected after formatting (FormatReject.v): the formatter
   clause holds for ANY input, in BOTH notations (FormatInfix.v: the lexer is a notation-independent segmentation
   followed by a per-word classification, so the infix case, glued `!ident` included, reduces to the prefix theorems). *)
Require Import Base Lexer Parser Print LexProofs FormatProofs FormatReject FormatInfix.
Open Scope Z_scope.

(* the lexer inverts every rendering of a token list: any (possibly empty) run of Unicode white space between
   tokens, empty only where the two neighbours cannot fuse; string literals are taken verbatim up to the next quote
   (spaces, parentheses, semicolons, backslashes, line breaks inside them are content) *)
Theorem C14_lex_render : forall is_letter is_number infix items fuel lead,
  wf_items is_letter is_number infix items -> all_space lead ->
  (length (lead ++ render items) < fuel)%nat ->
  lex_loop is_letter is_number fuel infix (lead ++ render items) = Some (map fst items).
Proof. exact lex_render. Qed.

(* hence: the token sequence, and so the compiled program, depends only on the tokens, not on the layout *)
Theorem C14_layout_invariance : forall is_letter is_number infix items1 items2,
  wf_items is_letter is_number infix items1 -> wf_items is_letter is_number infix items2 ->
  map fst items1 = map fst items2 ->
  lex is_letter is_number infix (render items1) = lex is_letter is_number infix (render items2).
Proof. exact layout_invariance. Qed.

(* comments never change meaning: two layouts whose tokens agree once the comments are dropped — comments anywhere
   between tokens, each running to its line break or to the end of the input — give the parser the same tokens *)
Theorem C14_comments_invariance : forall is_letter is_number infix items1 items2,
  wf_items is_letter is_number infix items1 -> wf_items is_letter is_number infix items2 ->
  drop_comments (map fst items1) = drop_comments (map fst items2) ->
  option_map drop_comments (lex is_letter is_number infix (render items1)) =
  option_map drop_comments (lex is_letter is_number infix (render items2)).
Proof. exact layout_invariance_comments. Qed.

(* a comment is one token reaching to the end of its line, whatever it contains *)
Theorem C14_comment_token : forall text s, ~ In 10%N text ->
  next_raw (59%N :: text ++ 10%N :: s) = (RComment (59%N :: text), 10%N :: s).
Proof. exact next_raw_comment. Qed.

(* directives are read from the comments before the first other token only *)
Theorem C14_leading_only : forall cs t rest, is_comment t = false ->
  leading_comments (map KComment cs ++ t :: rest) = cs.
Proof.
  induction cs as [|c cs IH]; intros t rest Ht; cbn [map app leading_comments].
  - destruct t; try reflexivity. discriminate.
  - rewrite IH by exact Ht. reflexivity.
Qed.

(* for EVERY source text the lexer accepts (prefix notation): the formatted text lexes to exactly the same tokens and
   comments - string literals with spaces, parentheses, semicolons, line breaks included - except that a comment
   ending the text loses its trailing white space (the formatter trims its result) *)
Theorem C14_indent_tokens : forall s toks, lex_tab false s = Some toks ->
  lex_tab false (indent_by_parens s) = Some (trim_last toks).
Proof. exact (indent_lexable is_letter_tab is_number_tab eq_refl eq_refl). Qed.

(* ... so what the parser sees, hence the parsed tree (hence, by C01/C15's theorems, the compiled program and its
   value), is the same; and the comments before the first token, where directives are read, are the same *)
Theorem C14_indent_meaning : forall s toks, lex_tab false s = Some toks ->
  option_map drop_comments (lex_tab false (indent_by_parens s)) = option_map drop_comments (lex_tab false s).
Proof. exact (indent_meaning_lexable is_letter_tab is_number_tab eq_refl eq_refl). Qed.
Theorem C14_indent_parse : forall c s toks, lex_tab false s = Some toks ->
  Parser.parse_source c false (indent_by_parens s) = Parser.parse_source c false s.
Proof.
  intros c s toks H. unfold Parser.parse_source. rewrite (C14_indent_tokens s toks H), H. rewrite trim_last_drop. reflexivity.
Qed.
Theorem C14_indent_directives : forall s toks, lex_tab false s = Some toks ->
  existsb (fun t => negb (is_comment t)) toks = true ->
  option_map leading_comments (lex_tab false (indent_by_parens s)) = Some (leading_comments toks).
Proof. intros s toks H Hn. rewrite (C14_indent_tokens s toks H). cbn [option_map]. rewrite trim_last_leading by exact Hn. reflexivity. Qed.

(* formatting twice gives the tokens of formatting once *)
Theorem C14_indent_twice : forall s toks, lex_tab false s = Some toks ->
  option_map drop_comments (lex_tab false (indent_by_parens (indent_by_parens s))) = Some (drop_comments toks).
Proof. exact (indent_twice is_letter_tab is_number_tab eq_refl eq_refl). Qed.

(* the same for every rendering of every well-formed token list, in either notation, for any letter/number
   classification under which the double quote is neither *)
Theorem C14_indent_layouts : forall is_letter is_number, is_letter 34%N = false -> is_number 34%N = false ->
  forall infix lead items, all_space lead -> wf_items is_letter is_number infix items ->
  lex is_letter is_number infix (indent_by_parens (lead ++ render items)) = Some (trim_last (map fst items)).
Proof. exact indent_tokens_wf. Qed.

(* and the lexer accepts exactly the renderings (prefix notation): every accepted source is white space followed by a
   well-formed rendering of its own tokens - so the theorems over renderings above speak about every accepted source *)
Theorem C14_lex_complete : forall is_letter is_number fuel s toks, lex_loop is_letter is_number fuel false s = Some toks ->
  exists lead items, s = lead ++ render items /\ all_space lead /\ wf_items is_letter is_number false items /\ map fst items = toks.
Proof. exact lex_complete. Qed.

(* a text the lexer REJECTS (a word that does not classify, a literal that is never closed) is still rejected after
   formatting: the formatter treats what precedes the offending token as above and leaves the token in place
   (FormatReject.v) *)
Theorem C14_indent_rejected : forall s, lex_tab false s = None -> lex_tab false (indent_by_parens s) = None.
Proof. exact (indent_rejected is_letter_tab is_number_tab eq_refl eq_refl). Qed.

(* the formatter clause in full: for ANY input, what the parser is given after formatting is what it is given before *)
Theorem C14_indent_statement : forall s,
  option_map drop_comments (lex_tab false (indent_by_parens s)) = option_map drop_comments (lex_tab false s).
Proof. exact (indent_meaning_all is_letter_tab is_number_tab eq_refl eq_refl). Qed.
Theorem C14_indent_parse_all : forall c s, Parser.parse_source c false (indent_by_parens s) = Parser.parse_source c false s.
Proof.
  intros c s. unfold Parser.parse_source. destruct (lex_tab false s) as [toks|] eqn:E.
  - rewrite (C14_indent_tokens s toks E), trim_last_drop. reflexivity.
  - rewrite (C14_indent_rejected s E). reflexivity.
Qed.

(* the lexer factors through a notation-independent segmentation: the raw pieces (comments, literals, delimiters,
   words) are those of the prefix lexer under the classification "every word character but the quote is a letter", and
   each notation only reclassifies the words (infix: the `!ident` split) *)
Theorem C14_lex_factor : forall fuel infix s,
  lex_loop is_letter_tab is_number_tab fuel infix s =
  match lex_loop L0 N0 fuel false s with Some raws => recl_all is_letter_tab is_number_tab infix raws | None => None end.
Proof. exact (lex_factor is_letter_tab is_number_tab eq_refl eq_refl). Qed.

(* for ANY input and EITHER notation: the formatted text lexes to the same tokens and comments (a comment ending the
   text trimmed), and a rejected text stays rejected *)
Theorem C14_indent_any : forall infix s,
  lex_tab infix (indent_by_parens s) = option_map trim_last (lex_tab infix s).
Proof. exact (indent_lex_any is_letter_tab is_number_tab eq_refl eq_refl). Qed.
Theorem C14_indent_statement_any : forall infix s,
  option_map drop_comments (lex_tab infix (indent_by_parens s)) = option_map drop_comments (lex_tab infix s).
Proof. exact (indent_meaning_any is_letter_tab is_number_tab eq_refl eq_refl). Qed.
Theorem C14_indent_parse_any : forall c infix s, Parser.parse_source c infix (indent_by_parens s) = Parser.parse_source c infix s.
Proof.
  intros c infix s. unfold Parser.parse_source. rewrite C14_indent_any. destruct (lex_tab infix s) as [toks|]; [|reflexivity].
  cbn [option_map]. rewrite trim_last_drop. reflexivity.
Qed.
(* the directive comments before the first token survive formatting in either notation *)
Theorem C14_indent_directives_any : forall infix s toks, lex_tab infix s = Some toks ->
  existsb (fun t => negb (is_comment t)) toks = true ->
  option_map leading_comments (lex_tab infix (indent_by_parens s)) = Some (leading_comments toks).
Proof. intros infix s toks H Hn. rewrite C14_indent_any, H. cbn [option_map]. rewrite trim_last_leading by exact Hn. reflexivity. Qed.

(* the first clause for EVERY accepted source and either notation: an accepted source is white space plus a well-formed
   layout of its raw pieces (comments, literals, delimiters, words); two layouts of the same pieces give the same tokens;
   and comments between the pieces never change what the parser is given *)
Theorem C14_lex_accepts_rendering : forall infix s toks, lex_tab infix s = Some toks ->
  exists lead items, s = lead ++ render items /\ all_space lead /\ wf_items L0 N0 false items /\
                     recl_all is_letter_tab is_number_tab infix (map fst items) = Some toks.
Proof. exact (lex_accepts_rendering is_letter_tab is_number_tab eq_refl eq_refl). Qed.
Theorem C14_layout_invariance_any : forall infix lead1 lead2 items1 items2,
  all_space lead1 -> all_space lead2 -> wf_items L0 N0 false items1 -> wf_items L0 N0 false items2 ->
  map fst items1 = map fst items2 ->
  lex_tab infix (lead1 ++ render items1) = lex_tab infix (lead2 ++ render items2).
Proof. exact (layout_invariance_any is_letter_tab is_number_tab eq_refl eq_refl). Qed.
Theorem C14_comments_invariance_any : forall infix lead1 lead2 items1 items2,
  all_space lead1 -> all_space lead2 -> wf_items L0 N0 false items1 -> wf_items L0 N0 false items2 ->
  drop_comments (map fst items1) = drop_comments (map fst items2) ->
  option_map drop_comments (lex_tab infix (lead1 ++ render items1)) =
  option_map drop_comments (lex_tab infix (lead2 ++ render items2)).
Proof. exact (layout_invariance_comments_any is_letter_tab is_number_tab eq_refl eq_refl). Qed.

(* non-vacuity: infix source with the glued `!ident` spelling (outside wf_items), a directive comment, a string list *)
Definition isrc : str := ss ";;;; optimize: false
 x > 1 &&  !y ||( !z && in( s ,[""a b"" ""(c""] ))  ; end  ".
Example C14_ex_infix :
  exists toks, lex_tab true isrc = Some toks /\ length toks = 23%nat /\
    In (KIdent (ss "!")) toks /\ ~ In (KIdent (ss "!y")) toks /\
    lex_tab true (indent_by_parens isrc) = Some (trim_last toks) /\ trim_last toks <> toks /\
    lex_tab false isrc = None /\ lex_tab false (indent_by_parens isrc) = None.
Proof.
  eexists. split; [vm_compute; reflexivity|]. split; [reflexivity|]. split; [vm_compute; tauto|]. split; [vm_compute; intuition discriminate|].
  split; [vm_compute; reflexivity|]. split; [vm_compute; discriminate|]. split; vm_compute; reflexivity.
Qed.

(* non-vacuity: the same tokens under three layouts, with a string containing every delimiter *)
Definition toks : list tok := [KLParen; KIdent (ss "="); KStr (ss "a (b); c
"); KIdent (ss "x.y"); KRParen].
Example C14_ex :
  lex_tab false (ss "(= ""a (b); c
"" x.y)") = Some toks /\
  lex_tab false (ss "(=	""a (b); c
""x.y  )") = Some toks /\
  lex_tab false (ss "(=""a (b); c
""x.y  )") = None /\
  option_map drop_comments (lex_tab false (ss " (  = ; note (
   ""a (b); c
""
 x.y)")) = Some toks.
Proof. vm_compute. repeat split. Qed.

(* the formatter on a source with a comment, a string holding every delimiter, nested parentheses *)
Definition src : str := ss "  (and ;; why (
  (= ""a (b); c"" x.y)   ( in n (1 2   3) ) ) ; end   ".
Example C14_ex_indent :
  exists toks, lex_tab false src = Some toks /\ length toks = 19%nat /\
    lex_tab false (indent_by_parens src) = Some (trim_last toks) /\ indent_by_parens src <> src.
Proof. eexists. split; [vm_compute; reflexivity|split; [reflexivity|split; [vm_compute; reflexivity|vm_compute; discriminate]]]. Qed.

Print Assumptions C14_lex_render.
Print Assumptions C14_indent_tokens.
Print Assumptions C14_indent_parse.
Print Assumptions C14_indent_statement.
Print Assumptions C14_indent_any.
Print Assumptions C14_indent_parse_any.
Print Assumptions C14_comments_invariance_any.
Print Assumptions C14_layout_invariance.
Print Assumptions C14_comments_invariance.

(* C09 — Capacity limits are enforced at compile time, never by overflow.
   Proofs in Proofs/Limits.v, EvalTop.v; the event-node limit is read off `compile_checked` here. *)
Require Import Base Tables Tree Opt Flat FlatE Run EvalTop Limits.
Open Scope Z_scope.

(* an accepted tree: its node count is its size and at most the generated limit (32767), every operator has at
   most the generated operand limit (127) — the check runs on the tree AFTER optimisation (compile_checked is
   applied to optimize cfg t), so flattening that creates a wider node is rejected *)
Theorem C09_check_accepts : forall t n, check t = inr n ->
  n = Z.of_nat (size t) /\ n <= max_nodes /\ ops_ok t.
Proof. exact check_accepts. Qed.
Theorem C09_check_rejects : forall t e, check t = inl e ->
  match e with CTooManyParams n => max_children < n | CTooManyNodes n => max_nodes < n | CTooManyEventNodes _ => False end.
Proof. exact check_rejects. Qed.

(* on accepted programs every stored field fits the narrow Go type (int8 childCnt, int16 osTop / maxStackSize,
   int16 program length): the model's unbounded integers and Go's fixed-width ones agree, nothing wraps *)
Theorem C09_accepted_in_range : forall t n, check t = inr n ->
  let P := compile t in
  lenZ (nodes P) = n /\ n <= max_nodes /\
  Forall (fun nd => fits16 (osTop nd) /\ fits8 (childCnt nd)) (nodes P) /\
  fits16 (maxStack P).
Proof. exact accepted_in_range. Qed.

(* the operand stack the evaluator allocates (8, 16 or one slot per node) holds every slot any node writes *)
Theorem C09_stack_large_enough : forall t i nd, getn (compile t) i = Some nd -> osTop nd < alloc (compile t).
Proof. exact compile_alloc. Qed.

(* and everything accepted evaluates to the reference result, without panic or fuel exhaustion *)
Theorem C09_accepted_evaluates : forall fetch custom t,
  eval fetch custom (compile t) = sem_obs (sem fetch custom t).
Proof. exact run_compile_correct. Qed.

(* with event nodes the compiled program is rejected when it exceeds the generated limit *)
Theorem C09_event_limit : forall cfg t P, compile_checked cfg t = inr P -> lenZ (nodes P) <= event_max_nodes.
Proof.
  intros cfg t P H. unfold compile_checked in H. destruct (check t); [discriminate|].
  destruct (event_max_nodes <? lenZ (nodes (compile_cfg cfg t))) eqn:E; [discriminate|]. inversion H; subst. lia.
Qed.

(* non-vacuity: 127 operands accepted, 128 rejected; depth 9 and 17 programs get the larger stacks *)
Example C09_ex_wide :
  (exists n, check (TOp (ss "+") false (repeat (TConst (VInt 1)) 127)) = inr n) /\
  check (TOp (ss "+") false (repeat (TConst (VInt 1)) 128)) = inl (CTooManyParams 128).
Proof. split; [eexists|]; vm_compute; reflexivity. Qed.
Example C09_ex_alloc :
  alloc (compile (TOp (ss "+") false (repeat (TConst (VInt 1)) 8))) = 8 /\
  alloc (compile (TOp (ss "+") false (repeat (TConst (VInt 1)) 9))) = 16 /\
  alloc (compile (TOp (ss "+") false (repeat (TConst (VInt 1)) 17))) = 18.
Proof. vm_compute. repeat split. Qed.

Print Assumptions C09_accepted_in_range.
Print Assumptions C09_stack_large_enough.
Print Assumptions C09_accepted_evaluates.

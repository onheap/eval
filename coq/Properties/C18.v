(* C18 — Scalar operators obey their algebra on the whole int64/bool domain.
   The proofs are in Proofs/OpsArith.v (the two table theorems: TableFacts.v); what follows from the definitions in
   a line is proved here. *)
Require Import Base Opcode Tables Ops OpsArith TableFacts.
Open Scope Z_scope.

(* arithmetic: exact left fold over Z, wrapped into int64 (two's complement) *)
Theorem C18_arith_ring_fold : forall m v w vs,
  m = AAdd \/ m = ASub \/ m = AMul -> in_i64 v = true ->
  arith m (ints (v :: w :: vs)) = Ok (VInt (wrap64 (fold_left (zop m) (w :: vs) v))).
Proof. exact arith_ring_fold. Qed.

(* division / modulo: truncated left fold; a zero divisor anywhere is an error (the model has no panic outcome:
   MinInt64 / -1 wraps to MinInt64) *)
Theorem C18_arith_div_fold : forall m v w vs, m = ADiv \/ m = AMod ->
  arith m (ints (v :: w :: vs)) =
    if existsb (Z.eqb 0) (w :: vs) then Err (EExec (div_name m)) else Ok (VInt (divfold m v (w :: vs))).
Proof. exact arith_div_fold. Qed.
Theorem C18_div_zero_anywhere : forall m v pre post, m = ADiv \/ m = AMod ->
  arith m (ints (v :: pre ++ 0 :: post)) = Err (EExec (div_name m)).
Proof. exact arith_div_zero_anywhere. Qed.
Theorem C18_arith_in_range : forall m v vs z, in_i64 v = true -> arith m (ints (v :: vs)) = Ok (VInt z) -> in_i64 z = true.
Proof. exact arith_result_in_range. Qed.
Theorem C18_arith_count : forall m ps, (length ps < 2)%nat -> arith m ps = Err (ECount (mname (amode_key m))).
Proof. exact arith_count_error. Qed.
Theorem C18_arith_ok_needs_ints : forall m ps r, arith m ps = Ok r -> (2 <= length ps)%nat /\ forallb is_int ps = true.
Proof. exact arith_ok_needs_ints. Qed.
Theorem C18_arith_errors_only : forall m ps e, arith m ps = Err e ->
  e = ECount (mname (amode_key m)) \/ e = EType (mname (amode_key m)) \/ e = EExec (div_name m).
Proof. exact arith_never_other_error. Qed.

Theorem C18_and_all : forall a b bs, logic LAnd (bools (a :: b :: bs)) = Ok (VBool (forallb (fun x => x) (a :: b :: bs))).
Proof. exact logic_and_all. Qed.
Theorem C18_or_any : forall a b bs, logic LOr (bools (a :: b :: bs)) = Ok (VBool (existsb (fun x => x) (a :: b :: bs))).
Proof. exact logic_or_any. Qed.
Theorem C18_xor_parity : forall a b bs, logic LXor (bools (a :: b :: bs)) = Ok (VBool (fold_left xorb (b :: bs) a)).
Proof. intros a b bs. apply logic_fold. Qed.
Theorem C18_logic_count : forall m ps, (length ps < 2)%nat -> logic m ps = Err (ECount (mname (lmode_key m))).
Proof. exact logic_count_error. Qed.
Theorem C18_logic_type : forall m ps, (2 <= length ps)%nat -> forallb is_bool ps = false -> logic m ps = Err (EType (mname (lmode_key m))).
Proof. exact logic_type_error. Qed.
Theorem C18_not : forall ps, logic_not ps =
  match ps with [VBool b] => Ok (VBool (negb b)) | [_] => Err (EType (ss "not")) | _ => Err (ECount (ss "not")) end.
Proof. reflexivity. Qed.

(* comparisons agree with the int64 order and with each other *)
Theorem C18_cmp_order : forall m i j, cmp m [VInt i; VInt j] = Ok (VBool (
  match m with CGt => Z.gtb i j | CLt => Z.ltb i j | CGe => Z.geb i j | CLe => Z.leb i j end)).
Proof. reflexivity. Qed.
Theorem C18_le_not_gt : forall i j, cmp CLe [VInt i; VInt j] = Ok (VBool (negb (i >? j))).
Proof. intros i j. cbn. rewrite Z.gtb_ltb, <- Z.leb_antisym. reflexivity. Qed.
Theorem C18_ge_not_lt : forall i j, cmp CGe [VInt i; VInt j] = Ok (VBool (negb (i <? j))).
Proof. intros i j. cbn. rewrite Z.geb_leb, Z.leb_antisym. reflexivity. Qed.
Theorem C18_cmp_errors : forall m ps,
  match ps with
  | [VInt _; VInt _] => True
  | [_; _] => cmp m ps = Err (EType (mname (cmode_key m)))
  | _ => cmp m ps = Err (ECount (mname (cmode_key m)))
  end.
Proof. intros m ps. destruct ps as [|a [|b [|c ps]]]; try reflexivity; destruct a; try reflexivity; destruct b; try reflexivity; exact I. Qed.
Theorem C18_ne_is_not_eq : forall a b, comparable a = true -> comparable b = true ->
  exists r, cmp_eq [a; b] = Ok (VBool r) /\ cmp_ne [a; b] = Ok (VBool (negb r)).
Proof.
  intros a b Ha Hb. exists (go_eq a b). unfold cmp_eq, cmp_ne. cbn [length Nat.ltb Nat.leb forallb].
  rewrite Ha, Hb. split; reflexivity.
Qed.
Theorem C18_eq_int : forall i j, cmp_eq [VInt i; VInt j] = Ok (VBool (i =? j)).
Proof. reflexivity. Qed.
Theorem C18_eq_nary : forall a ps, (1 <= length ps)%nat -> forallb comparable (a :: ps) = true ->
  cmp_eq (a :: ps) = Ok (VBool (forallb (go_eq a) ps)).
Proof. exact eq_nary. Qed.
Theorem C18_eq_count : forall ps, (length ps < 2)%nat -> cmp_eq ps = Err (ECount (mname "equals")).
Proof. intros ps H. unfold cmp_eq. rewrite (proj2 (Nat.ltb_lt _ _) H). reflexivity. Qed.
Theorem C18_ne_count : forall ps, length ps <> 2%nat -> cmp_ne ps = Err (ECount (mname "notEquals")).
Proof. intros ps H. destruct ps as [|a [|b [|c ps]]]; try reflexivity. destruct H. reflexivity. Qed.
Theorem C18_between : forall v a b,
  cmp_between [VInt v; VInt a; VInt b] = Ok (VBool ((a <=? v) && (v <=? b))) /\
  (exists x y, cmp CGe [VInt v; VInt a] = Ok (VBool x) /\ cmp CLe [VInt v; VInt b] = Ok (VBool y) /\
               cmp_between [VInt v; VInt a; VInt b] = Ok (VBool (x && y))).
Proof.
  intros v a b. split; [reflexivity|]. exists (v >=? a), (v <=? b). repeat split. cbn. rewrite Z.geb_leb. reflexivity.
Qed.
Theorem C18_between_errors : forall ps,
  match ps with
  | [VInt _; VInt _; VInt _] => True
  | [_; _; _] => cmp_between ps = Err (EType (mname "between"))
  | _ => cmp_between ps = Err (ECount (ss "between"))
  end.
Proof.
  (* the two error values occur in every branch of the statement: folded, the case analysis is over a small goal *)
  intros ps. set (et := Err (EType (mname "between"))). set (ec := Err (ECount (ss "between"))).
  destruct ps as [|a [|b [|c [|d ps]]]]; try reflexivity;
  destruct a; try reflexivity; destruct b; try reflexivity; destruct c; try reflexivity; exact I.
Qed.

(* aliases: in the table regenerated from /repo/operator.go every alias has the opcode (= the same model function)
   of its named form, every named form has its canonical opcode, and there is no other built-in name *)
Theorem C18_alias_same : aliases_ok = true /\ canonical_ok = true /\ table_functional = true /\ no_other_names = true.
Proof. exact alias_same. Qed.

(* non-vacuity: concrete instances at the int64 extremes *)
Example C18_ex_wrap : arith AAdd (ints [9223372036854775807; 1]) = Ok (VInt (-9223372036854775808)).
Proof. reflexivity. Qed.
Example C18_ex_minint_div : arith ADiv (ints [-9223372036854775808; -1]) = Ok (VInt (-9223372036854775808)).
Proof. reflexivity. Qed.
Example C18_ex_div0_late : arith AMod (ints [7; 3; 0; 2]) = Err (EExec (ss "mod")).
Proof. reflexivity. Qed.
Example C18_ex_between_inverted : cmp_between [VInt 15; VInt 10; VInt 1] = Ok (VBool false).
Proof. reflexivity. Qed.

(* the alias tables regenerated from the source hang together: a name short-circuits as `and` (is recognised by the
   compiler's isAndOpNode) exactly when the operator table implements it by the boolean `and` fold, likewise `or`; and in
   infix notation every spelling of one operator has the same precedence and arity, so an alias behaves like its named
   form there too *)
Theorem C18_alias_tables_agree :
  forallb (fun p => Bool.eqb (existsb (String.eqb (fst p)) and_aliases) (is_logic LAnd (snd p))) builtin_table = true /\
  forallb (fun p => Bool.eqb (existsb (String.eqb (fst p)) or_aliases) (is_logic LOr (snd p))) builtin_table = true /\
  forallb (fun n => existsb (fun p => String.eqb (fst p) n) builtin_table) (and_aliases ++ or_aliases) = true.
Proof. exact alias_tables_agree. Qed.
Theorem C18_infix_spellings_same_level :
  infix_of "&" = infix_of "&&" /\ infix_of "|" = infix_of "||" /\ infix_of "=" = infix_of "==" /\
  infix_of "&&" <> None /\ infix_of "||" <> None /\ infix_of "==" <> None /\
  match infix_of "*", infix_of "+", infix_of "!", infix_of "<", infix_of "&&", infix_of "||" with
  | Some (a, _), Some (b, _), Some (c, _), Some (d, _), Some (e, _), Some (f, _) => (a >? b) && (b >? c) && (c >? d) && (d >? e) && (e >? f) = true
  | _, _, _, _, _, _ => False
  end.
Proof. exact infix_spellings_same_level. Qed.

Print Assumptions C18_arith_ring_fold.
Print Assumptions C18_arith_div_fold.
Print Assumptions C18_eq_nary.
Print Assumptions C18_between.
Print Assumptions C18_alias_same.

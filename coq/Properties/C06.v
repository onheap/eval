(* C06 — Compile and evaluation are total: result or error, never panic or hang.
   PARTIAL: the evaluation half (Eval, TryEval and Dump on every compiled tree) is proved; the text half (lexer,
   parsers on arbitrary strings) is explored under recover() — see DESIGN.md. *)
Require Import Base Tree Opt Flat Run EvalDefs EvalTop TryCorrect DumpStruct Print.
Open Scope Z_scope.

(* the model of Expr.Eval has an explicit MPanic outcome at every Go expression that can panic (index out of
   range, stale slot, negative count) and MFuel for a loop that does not end within len(nodes)+1 iterations;
   neither ever happens on a compiled tree, for any fetcher and any operator functions *)
Theorem C06_eval_total : forall fetch custom t,
  exists tr, eval fetch custom (compile t) = (tr, MVal (match snd (sem fetch custom t) with Ok v => v | Err _ => VNil end))
          \/ exists e, eval fetch custom (compile t) = (tr, MErr e).
Proof.
  intros. rewrite run_compile_correct. unfold sem_obs. destruct (sem fetch custom t) as [tr [v|e]]; cbn [fst snd].
  - exists (map e2o tr). left. reflexivity.
  - exists (map e2o tr). right. exists e. reflexivity.
Qed.

Theorem C06_eval_no_panic : forall fetch custom t site,
  snd (eval fetch custom (compile t)) <> MPanic site /\ snd (eval fetch custom (compile t)) <> MFuel.
Proof.
  intros. rewrite run_compile_correct. unfold sem_obs. destruct (snd (sem fetch custom t)); cbn [snd]; split; discriminate.
Qed.

(* the same for TryEval: the model of Expr.TryEval (explicit panic outcomes at every index expression, explicit fuel
   for the climbing loop) ends in a value or an error on every compiled tree, for every availability predicate *)
Theorem C06_tryeval_no_panic : forall fetch custom cached t site,
  snd (tryeval fetch custom cached (compile t)) <> MPanic site /\ snd (tryeval fetch custom cached (compile t)) <> MFuel.
Proof.
  intros. rewrite tryrun_compile_correct. unfold sem_obs. destruct (snd (trysem fetch custom cached t)); cbn [snd]; split; discriminate.
Qed.

(* Dump of a compiled program always produces a text (the model returns None where Go would index out of range) *)
Theorem C06_dump_total : forall t, dump (compile t) <> None.
Proof. intros t. rewrite dump_compile. discriminate. Qed.

(* the capacity check always answers (what it answers: C09_check_accepts / _rejects) *)
Theorem C06_check_total : forall t, (exists n, check t = inr n) \/ (exists e, check t = inl e).
Proof. intros t. destruct (check t); eauto. Qed.

(* The text half — Compile never panics on ANY string — has no theorem: the models of lexer and parsers are total
   functions by construction, which says nothing about the Go functions; that half is explored under recover()
   on every run (DESIGN.md section 5, C06). *)

Print Assumptions C06_eval_no_panic.
Print Assumptions C06_tryeval_no_panic.

(* C02 — Every optimisation combination preserves the meaning of the expression.
   Statements; proofs in Proofs/OptSound.v (agreement of values), OptTotal.v (all configurations return the value when
   every reachable operand succeeds), OptValue.v (Reordering off: the unoptimised value). All three sentences of the
   property are theorems; `optimize` is compared with Go's optimised tree on every run, and all 16 subsets set by
   options and by `;;;;` directives are compared directly. *)
Require Import Base Tree Opt Flat Run EvalTop OptSound OptValue OptTotal.
From Coq Require Import Permutation.
Open Scope Z_scope.

(* every pass, hence every one of the 16 subsets under every cost map and stateless declaration, preserves the
   order-insensitive denotation `den` (and/or decided by any deciding operand; a failing operand = undefined) *)
Theorem C02_den_optimize : forall fetch custom cfg t, den fetch custom (optimize custom cfg t) = den fetch custom t.
Proof. exact den_optimize. Qed.
(* reordering: for ANY sorting function returning a permutation (covers NaN / infinite / negative costs) *)
Theorem C02_den_reorder_any_sorter : forall fetch custom sorter, (forall l, Permutation (sorter l) l) ->
  forall t, den fetch custom (reorder_with sorter t) = den fetch custom t.
Proof. exact den_reorder. Qed.

(* left-to-right short-circuit evaluation refines the denotation on the property's domain (operands of and/or are
   boolean-valued or undefined), and that domain is preserved by every pass *)
Theorem C02_sem_refines_den : forall fetch custom t, wt fetch custom t ->
  forall v, snd (sem fetch custom t) = Ok v -> den fetch custom t = Some v.
Proof. exact sem_refines_den. Qed.
Theorem C02_domain_preserved : forall fetch custom cfg t, wt fetch custom t -> wt fetch custom (optimize custom cfg t).
Proof. exact wt_optimize. Qed.

(* whenever two configurations both return a value for the same binding, it is the same value
   (through C01's theorem, `sem` of the optimised tree is what the compiled program returns) *)
Theorem C02_configurations_agree : forall fetch custom cfgA cfgB t a b, wt fetch custom t ->
  snd (sem fetch custom (optimize custom cfgA t)) = Ok a ->
  snd (sem fetch custom (optimize custom cfgB t)) = Ok b -> a = b.
Proof. exact configurations_agree. Qed.
Theorem C02_compiled_agree : forall fetch custom cfgA cfgB t a b, wt fetch custom t ->
  snd (eval fetch custom (compile (optimize custom cfgA t))) = MVal a ->
  snd (eval fetch custom (compile (optimize custom cfgB t))) = MVal b -> a = b.
Proof.
  intros fetch custom cfgA cfgB t a b W HA HB. apply eval_value in HA, HB. exact (configurations_agree fetch custom cfgA cfgB t a b W HA HB).
Qed.

(* second sentence: when evaluating every reachable operand succeeds — `rok t = Some v`: all operands of every
   operator in whatever order, and the taken branch of every `if`, evaluate, with result v — every configuration (any
   subset of the four passes incl. Reordering, any cost map, any stateless declarations) returns v *)
Theorem C02_all_configurations_return : forall fetch custom cfg t v,
  rok fetch custom t = Some v -> snd (sem fetch custom (optimize custom cfg t)) = Ok v.
Proof. exact all_configurations_return. Qed.
Theorem C02_all_configurations_return_compiled : forall fetch custom cfg t v,
  rok fetch custom t = Some v -> snd (eval fetch custom (compile (optimize custom cfg t))) = MVal v.
Proof.
  intros fetch custom cfg t v H. apply eval_value. exact (all_configurations_return fetch custom cfg t v H).
Qed.

(* third sentence: with Reordering off, whatever the other switches, costs and stateless declarations: if plain
   left-to-right short-circuit evaluation of the parsed tree (no fast marks) returns a value, the optimised
   expression returns that value — on the property's domain (and/or operands boolean-valued) under a binding of all
   variables; so guard patterns stay safe *)
Theorem C02_reordering_off : forall fetch custom cfg t v,
  pass_on cfg "reordering" = false -> nofast t -> wt fetch custom t -> vars_ok fetch t ->
  snd (sem fetch custom t) = Ok v -> snd (sem fetch custom (optimize custom cfg t)) = Ok v.
Proof. exact no_reorder_value. Qed.
Theorem C02_reordering_off_compiled : forall fetch custom cfg t v,
  pass_on cfg "reordering" = false -> nofast t -> wt fetch custom t -> vars_ok fetch t ->
  snd (eval fetch custom (compile t)) = MVal v -> snd (eval fetch custom (compile (optimize custom cfg t))) = MVal v.
Proof.
  intros fetch custom cfg t v Hr Hn Hw Hv H. apply eval_value in H. apply eval_value.
  exact (no_reorder_value fetch custom cfg t v Hr Hn Hw Hv H).
Qed.

(* non-vacuity: the guard pattern under all passes; a reordering that moves a failing operand behind a deciding one *)
Definition fz (n : str) (k : Z) : res value := if str_eqb n (ss "x") then Ok (VInt 0) else Ok (VBool true).
Definition nocustom (n : str) (a : list value) : res value := Err (EOther 0).
Definition cfg_all : config := {| enabled := []; stateless := []; registered := []; costs := []; events := false |}.
Definition cfg_none : config := {| enabled := [("constant_folding", false); ("reduce_nesting", false); ("fast_evaluation", false); ("reordering", false)]%string;
                                   stateless := []; registered := []; costs := []; events := false |}.
Definition guard : tree :=
  TOp (ss "and") false [TOp (ss "!=") false [TVar (ss "x") 1; TConst (VInt 0)];
                         TOp (ss ">") false [TOp (ss "/") false [TConst (VInt 10); TVar (ss "x") 1]; TConst (VInt 1)]].
Example C02_ex_guard :
  snd (sem fz nocustom (optimize nocustom cfg_none guard)) = Ok (VBool false) /\
  snd (sem fz nocustom (optimize nocustom cfg_all guard)) = Ok (VBool false) /\
  wt fz nocustom guard.
Proof.
  split; [vm_compute; reflexivity|split; [vm_compute; reflexivity|]].
  (* only the root is an and/or: its first operand denotes false, its second is undefined *)
  unfold guard. cbn [wt]. repeat split; intros d H; try (vm_compute in H; discriminate H).
  apply Forall_cons; [right; exists false|apply Forall_cons; [left|apply Forall_nil]]; vm_compute; reflexivity.
Qed.

Example C02_ex_hyps : nofast guard /\ vars_ok fz guard /\ pass_on cfg_none "reordering" = false.
Proof. cbn. repeat split; eexists; reflexivity. Qed.
Example C02_ex_rok : rok fz nocustom (TOp (ss "or") false [TOp (ss "=") false [TVar (ss "x") 1; TConst (VInt 0)]; TVar (ss "b") 2; TConst (VBool false)]) = Some (VBool true).
Proof. vm_compute. reflexivity. Qed.

(* the third sentence in its literal reading ("every expression") fails outside the domain `wt`: a NON-boolean operand in
   front of a deciding last operand - unoptimised evaluation never applies the operator (the last operand's value is the
   result), a fast operator applies it to both leaves and reports the type error. Recorded in known_findings.json
   (c02-nonboolean-operand-before-deciding-last-operand); the witness is replayed against the real code on every run. *)
Definition fb (n : str) (k : Z) : res value := Ok (VBool true).
Definition cfg_fast_only : config :=
  {| enabled := [("constant_folding", false); ("reduce_nesting", false); ("reordering", false)]%string; stateless := []; registered := []; costs := []; events := false |}.
Example C02_reordering_off_refuted_outside_domain :
  let t := TOp (ss "or") false [TConst (VInt 3); TVar (ss "b") 1] in
  pass_on cfg_fast_only "reordering" = false /\ nofast t /\
  snd (sem fb nocustom t) = Ok (VBool true) /\
  snd (sem fb nocustom (optimize nocustom cfg_fast_only t)) = Err (EType (ss "or")).
Proof. vm_compute. repeat split; reflexivity. Qed.

Print Assumptions C02_configurations_agree.
Print Assumptions C02_compiled_agree.
Print Assumptions C02_all_configurations_return_compiled.
Print Assumptions C02_reordering_off_compiled.

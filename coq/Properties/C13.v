(* C13 — Dump decompiles to an equivalent, re-compilable expression.
   Proofs in Proofs/DumpStruct.v, DumpStructE.v, DumpText.v, PrefixProofs.v, PrintProofs.v, SourceProofs.v, LexProofs.v,
   DumpProofs.v, StripValue.v, OptSound.v; only `C13_recompiled_keeps_value_compiled` and `C13_second_dump` are put
   together here.

   Proved, for EVERY tree t and every configuration:
     (0) `dump (compile t)` — the model of util.go Dump run on the compiled program: children found through the
         parent-index table, the `fi` marker of an `if` skipped — is the structural printing `show t`;
     (1) for every t over the parser configuration (`twf`: int64 integers, strings, booleans, non-empty integer lists,
         string lists; variables registered under their names; operators of the configuration) whose names are identifiers
         and whose strings contain no double quote (`lexable`: the lexer has no escapes, so these are exactly the
         literals the lexer can produce), that text goes through lexer, parser.check and the prefix parser and
         yields t with its fast marks cleared (`strip t`): Dump's output compiles under the same names;
     (2) strconv.ParseInt inverts the integer printer on all of int64; string literals are verbatim (C14_lex_render:
         spaces, parentheses, semicolons, backslashes, line breaks, non-ASCII are content);
     (3) the recompiled program — under any optimisation subset — returns the value the original returned whenever
         both return one (on expressions whose and/or operands are boolean); it is the very same tree when the
         original carries no fast marks (all effects and errors equal);
     (4) dumping the recompiled unoptimised program reproduces the text exactly.
     (5) the same text is printed for the program WITH event nodes (ReportEvent/Debug).
   PARTIAL only in this: "same result on every binding" is proved as "whenever both return a value" (a fast and/or
   operator evaluates both leaves, so an erroring second operand behind a deciding first one is an error before and
   a value after the round trip). *)
Require Import Base Ops Tree Opt Flat Run Lexer Parser Print LexProofs PrefixProofs PrintProofs SourceProofs OptSound DumpProofs StripValue EvalTop DumpStruct DumpText FlatE DumpStructE.
Open Scope Z_scope.

(* Dump of a compiled program is the structural printing of its tree *)
Theorem C13_dump_is_show : forall t, dump (compile t) = Some (fst (show t 0)).
Proof. exact dump_compile. Qed.

(* Dump's text compiles, under the same names, to the same expression *)
Theorem C13_dump_roundtrip : forall c t, twf c t -> lexable t -> is_leaf t = false ->
  match dump (compile t) with Some s => parse_source c false s | None => None end = Some (strip t).
Proof. exact dump_roundtrip. Qed.

(* the second Dump reproduces the text exactly *)
Theorem C13_second_dump_text : forall t, dump (compile (strip t)) = dump (compile t).
Proof. exact second_dump. Qed.

(* any layout of the printed tokens — white space and `;` comments between them — reads back as the tree *)
Theorem C13_reparse : forall c items t,
  wf_items is_letter_tab is_number_tab false items -> drop_comments (map fst items) = ttoks show_Z t -> twf c t -> is_leaf t = false ->
  parse_source c false (render items) = Some (strip t).
Proof. intros c. exact (prefix_source c show_Z parse_show_Z). Qed.

Theorem C13_reparse_tokens : forall c t, twf c t -> parse_prefix c false (ttoks show_Z t) = Some (strip t).
Proof. intros c. exact (parse_prefix_correct c show_Z parse_show_Z). Qed.

(* integers: ParseInt inverts FormatInt on all of int64 *)
Theorem C13_int_roundtrip : forall z, in_i64 z = true -> parse_int (show_Z z) = Some z.
Proof. exact parse_show_Z. Qed.

Theorem C13_same_value : forall fetch custom cfg' t a b, wt fetch custom t ->
  snd (sem fetch custom t) = Ok a -> snd (sem fetch custom (optimize custom cfg' (strip t))) = Ok b -> a = b.
Proof. exact roundtrip_value. Qed.
Theorem C13_same_everything_without_fast_marks : forall fetch custom t, strip t = t ->
  sem fetch custom (strip t) = sem fetch custom t.
Proof. exact roundtrip_exact. Qed.
(* the round trip never LOSES a result: whenever the original expression returns a value, the expression read back
   from its Dump returns that value — evaluated as it stands, or recompiled under any configuration that does not
   reorder, when all variables are bound (StripValue.v). The converse can fail by design: a fast operator of the
   original fetches both operands before it looks at the first *)
Theorem C13_recompiled_keeps_value : forall fetch custom t v, wt fetch custom t ->
  snd (sem fetch custom t) = Ok v -> snd (sem fetch custom (strip t)) = Ok v.
Proof. intros fetch custom t v W H. exact (strip_value fetch custom t W v H). Qed.
Theorem C13_recompiled_keeps_value_cfg : forall fetch custom cfg t v, pass_on cfg "reordering" = false ->
  wt fetch custom t -> OptValue.vars_ok fetch t ->
  snd (sem fetch custom t) = Ok v -> snd (sem fetch custom (optimize custom cfg (strip t))) = Ok v.
Proof. exact strip_value_cfg. Qed.
Theorem C13_recompiled_keeps_value_compiled : forall fetch custom t v, wt fetch custom t ->
  snd (eval fetch custom (compile t)) = MVal v -> snd (eval fetch custom (compile (strip t))) = MVal v.
Proof.
  intros fetch custom t v W H. apply eval_value, (C13_recompiled_keeps_value fetch custom t v W), eval_value, H.
Qed.

(* the second round trip is the identity *)
Theorem C13_second_dump : forall c t, twf c (strip t) ->
  parse_prefix c false (ttoks show_Z (strip t)) = Some (strip t).
Proof. intros c t H. rewrite (parse_prefix_correct c show_Z parse_show_Z _ H). rewrite strip_idem. reflexivity. Qed.

(* regardless of event/debug mode: Dump of the event-mode program is the same text (event nodes are skipped, the
   real nodes keep their structure), so everything above holds for it too *)
Theorem C13_dump_event_mode : forall t, dump (compileE t) = dump (compile t).
Proof. exact dump_events_transparent. Qed.

(* non-vacuity: a program with a string full of delimiters, a list, a fast operator; its Dump in the model; the
   round trip through the whole front end *)
Definition c0 : pconf := {| p_consts := []; p_vars := [(ss "a", 1); (ss "b.c", 2)]; p_ops := [ss "f"]; p_undefined := false |}.
Definition ex : tree :=
  TOp (ss "and") false
    [TOp (ss "=") true [TVar (ss "a") 1; TConst (VStr (ss "x (y); z\ [1]
 λ"))];
     TIf (TOp (ss "in") false [TVar (ss "b.c") 2; TConst (VIntL [1; -2; 3])]) (TOp (ss "f") false []) (TConst (VBool false))].
Example C13_ex_wf : twf c0 ex /\ is_leaf ex = false.
Proof. cbn [twf ex vwf c0]. repeat split; try reflexivity; [discriminate|repeat constructor]. Qed.
Example C13_ex_lexable : lexable ex.
Proof.
  cbn [lexable ex vlex]. repeat split;
    try (eexists _, _; split; [reflexivity|]; repeat split; try reflexivity; try discriminate; repeat constructor; fail).
  - intros H. vm_compute in H. repeat (destruct H as [H|H]; [discriminate|]). exact H.
  - repeat constructor.
Qed.
Example C13_ex_dump : option_map (parse_source c0 false) (dump (compile ex)) = Some (Some (strip ex)).
Proof. vm_compute. reflexivity. Qed.
Example C13_ex_dump_events : dump (eventize (compile ex)) = dump (compile ex) /\ compileE ex = eventize (compile ex).
Proof. vm_compute. split; reflexivity. Qed.

Print Assumptions C13_dump_is_show.
Print Assumptions C13_dump_event_mode.
Print Assumptions C13_dump_roundtrip.
Print Assumptions C13_reparse.
Print Assumptions C13_same_value.
Print Assumptions C13_second_dump.

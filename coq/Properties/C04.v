(* C04 — TryEval answers are never contradicted by fetching more variables.
   `tryeval` / `eval` are the models of Expr.TryEval / Expr.Eval run on the compiled flat program (compared with the
   Go functions on Go's own programs on every run); `trysem` / `sem` are their tree-level meanings.
   Proofs in Proofs/TryCorrect.v (machine level), EvalTop.v, TrySound.v; the statements about the source expression
   combine them here with C02's theorems (OptSound.v, OptTotal.v). *)
Require Import Base Tree Opt Flat Run TrySound EvalTop TryCorrect OptSound OptTotal.
Open Scope Z_scope.

(* the TryEval loop on the compiled program computes exactly `trysem`: value or the very error, the fetches of
   available variables and the operator applications, in order; no panic, no fuel exhaustion — for every tree,
   fetcher, operator table and availability predicate *)
Theorem C04_tryeval_is_trysem : forall fetch custom cached t,
  tryeval fetch custom cached (compile t) = sem_obs (trysem fetch custom cached t).
Proof. exact tryrun_compile_correct. Qed.

(* machine level: a definite answer of TryEval on the compiled program is the value Eval of the compiled program
   returns under EVERY completion of the unavailable variables for which Eval returns a value *)
Theorem C04_sound_compiled : forall custom fetch cached fetch',
  (forall n k, cached n k = true -> fetch' n k = fetch n k) ->
  forall t tr tr' v v', tryeval fetch custom cached (compile t) = (tr, MVal v) ->
    eval fetch' custom (compile t) = (tr', MVal v') -> v = VDNE \/ v = v'.
Proof.
  intros custom fetch cached fetch' Hc t tr tr' v v' H1 H2.
  apply (try_sound custom fetch cached fetch' Hc t v v').
  - apply tryeval_value. rewrite H1. reflexivity.
  - apply eval_value. rewrite H2. reflexivity.
Qed.

(* a definite answer (v <> VDNE) of TryEval under availability `cached` is the value Eval returns under EVERY
   completion fetch' of the unavailable variables for which Eval succeeds — for every tree, hence for
   optimize cfg t under every option subset *)
Theorem C04_sound : forall custom fetch cached fetch',
  (forall n k, cached n k = true -> fetch' n k = fetch n k) ->
  forall t v v', snd (trysem fetch custom cached t) = Ok v -> snd (sem fetch' custom t) = Ok v' ->
  v = VDNE \/ v = v'.
Proof. exact try_sound. Qed.

(* ... and of the SOURCE expression, when the program was compiled with any optimisation configuration: a definite
   answer of TryEval on the optimised expression is the value the expression as written has under every completion
   under which it and its optimised form return values (C02's theorem: they then agree); when strict evaluation of
   the source succeeds under the completion (`rok`), that is automatic *)
Theorem C04_sound_source : forall custom fetch cached fetch' cfg,
  (forall n k, cached n k = true -> fetch' n k = fetch n k) ->
  forall t v a b, wt fetch' custom t ->
    snd (trysem fetch custom cached (optimize custom cfg t)) = Ok v ->
    snd (sem fetch' custom t) = Ok a -> snd (sem fetch' custom (optimize custom cfg t)) = Ok b ->
    v = VDNE \/ v = a.
Proof.
  intros custom fetch cached fetch' cfg Hc t v a b W Hv Ha Hb.
  assert (E : a = b).
  { pose proof (sem_refines_den fetch' custom t W a Ha) as DA.
    pose proof (sem_refines_den fetch' custom _ (wt_optimize fetch' custom cfg t W) b Hb) as DB.
    rewrite den_optimize in DB. congruence. }
  subst b. exact (try_sound custom fetch cached fetch' Hc _ v a Hv Hb).
Qed.
Theorem C04_sound_source_strict : forall custom fetch cached fetch' cfg,
  (forall n k, cached n k = true -> fetch' n k = fetch n k) ->
  forall t v a, rok fetch' custom t = Some a ->
    snd (trysem fetch custom cached (optimize custom cfg t)) = Ok v -> v = VDNE \/ v = a.
Proof.
  intros custom fetch cached fetch' cfg Hc t v a R Hv.
  pose proof (all_configurations_return fetch' custom cfg t a R) as Hb. unfold OptValue.val in Hb.
  exact (try_sound custom fetch cached fetch' Hc _ v a Hv Hb).
Qed.

(* making more variables available never changes a definite answer *)
Theorem C04_monotone : forall custom fetch cached1 cached2,
  (forall n k, cached1 n k = true -> cached2 n k = true) ->
  forall t v v', snd (trysem fetch custom cached1 t) = Ok v -> snd (trysem fetch custom cached2 t) = Ok v' ->
  v = VDNE \/ v = v'.
Proof. exact try_mono. Qed.

(* all variables available: a value TryEval returns is the value Eval returns, whenever Eval returns one.
   PARTIAL with respect to the sentence "TryEval and Eval agree": on ill-typed expressions outside C01's domain
   Eval can return a value where TryEval reports the operator's type error (see C04_agree_refuted). *)
Theorem C04_agree_on_values_partial : forall custom fetch t v v',
  snd (trysem fetch custom all_cached t) = Ok v -> snd (sem fetch custom t) = Ok v' -> v = VDNE \/ v = v'.
Proof. exact try_eval_agree_on_values. Qed.

(* the witness of the strict reading failing (recorded in known_findings.json): (and 5 true), everything
   available: Eval returns true (the last operand's value), TryEval applies `and` and reports its type error *)
Definition nofetch (n : str) (k : Z) : res value := Err (EUnbound n).
Definition nocustom (n : str) (a : list value) : res value := Err (EOther 0).
Example C04_agree_refuted :
  let t := TOp (ss "and") false [TConst (VInt 5); TConst (VBool true)] in
  snd (sem nofetch nocustom t) = Ok (VBool true) /\
  snd (trysem nofetch nocustom all_cached t) = Err (EType (ss "and")).
Proof. vm_compute. split; reflexivity. Qed.

(* non-vacuity: a definite answer with an unavailable operand *)
Definition ex_fetch (n : str) (k : Z) : res value := if str_eqb n (ss "a") then Ok (VBool false) else Ok (VInt 0).
Definition ex_cached (n : str) (k : Z) : bool := str_eqb n (ss "a").
Example C04_ex :
  snd (trysem ex_fetch nocustom ex_cached
        (TOp (ss "and") false [TOp (ss "=") false [TConst (VInt 1); TOp (ss "/") false [TConst (VInt 1); TVar (ss "z") 2]]; TVar (ss "a") 1]))
  = Ok (VBool false).
Proof. vm_compute. reflexivity. Qed.

Print Assumptions C04_tryeval_is_trysem.
Print Assumptions C04_sound_compiled.
Print Assumptions C04_sound.
Print Assumptions C04_monotone.

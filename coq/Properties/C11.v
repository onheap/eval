(* C11 — Variables read the value bound to their name under any key layout.
   The proofs are in Proofs/VarsProofs.v; what follows from its lemmas in a line is proved here. *)
Require Import Base Vars OpsList VarsProofs.
Open Scope Z_scope.

(* GetOrRegisterKey never changes an existing assignment and returns the existing key of a known name *)
Theorem C11_register_preserves : forall km name n k, km_find n km = Some k -> km_find n (fst (get_or_register km name)) = Some k.
Proof. exact register_preserves. Qed.
Theorem C11_register_known : forall km name k, km_find name km = Some k -> get_or_register km name = (km, k).
Proof. intros km name k H. unfold get_or_register. rewrite H. reflexivity. Qed.
Theorem C11_register_returns_assignment : forall km name,
  km_find name (fst (get_or_register km name)) = Some (snd (get_or_register km name)).
Proof.
  intros km name. rewrite register_eq. destruct (km_find name km) eqn:E; [exact E|].
  cbn [fst snd]. rewrite km_find_app, E. cbn [km_find]. rewrite str_eqb_refl. reflexivity.
Qed.

(* ... and never assigns one key to two names: the new key is free (first free key in 1..size, or size+1 by a
   counting argument), from ANY pre-populated map with distinct keys *)
Theorem C11_register_fresh : forall km name, injective km -> km_find name km = None ->
  ~ In (snd (get_or_register km name)) (km_keys km).
Proof. exact register_fresh. Qed.
Theorem C11_register_injective : forall km name, injective km -> injective (fst (get_or_register km name)).
Proof. exact register_injective. Qed.
Theorem C11_register_key_range : forall km name, km_find name km = None -> 1 <= snd (get_or_register km name) <= lenZ km + 1.
Proof. exact register_key_range. Qed.
(* ... along every registration history: any sequence of names, from any map with distinct keys and distinct names *)
Theorem C11_history : forall names km, injective km -> names_distinct km ->
  injective (fst (register_all km names)) /\ names_distinct (fst (register_all km names)) /\
  (forall n k, km_find n km = Some k -> km_find n (fst (register_all km names)) = Some k).
Proof. exact history_injective. Qed.

(* with distinct keys, a variable reads the normalised value bound to its name whichever fetcher NewCtxFromVars
   picks (undefined-variable mode; all keys from 0 to below `slice_fetcher_limit`, 256 as generated: slice; otherwise: map) *)
Theorem C11_fetch_correct : forall undefined km b name key g, injective km -> names_distinct km ->
  km_find name km = Some key -> b_find name b = Some g ->
  fget (new_ctx undefined km b) key name = Ok (unify g).
Proof. exact fetch_correct. Qed.
Theorem C11_fetch_undefined : forall km b name key g, b_find name b = Some g -> fget (new_ctx true km b) key name = Ok (unify g).
Proof. intros km b name key g Hb. cbn. rewrite Hb. reflexivity. Qed.

Theorem C11_unify_spec :
  (forall z, unify (GInt z) = VInt z) /\ (forall z, unify (GInt8 z) = VInt z) /\ (forall z, unify (GInt16 z) = VInt z) /\
  (forall z, unify (GInt32 z) = VInt z) /\ (forall z, unify (GUint8 z) = VInt z) /\ (forall z, unify (GUint16 z) = VInt z) /\
  (forall z, unify (GUint32 z) = VInt z) /\
  (forall z, 0 <= z < two63 -> unify (GUint64 z) = VInt z) /\
  (forall z, two63 <= z < two64 -> unify (GUint64 z) = VInt (z - two64)) /\
  (forall l, unify (GInts l) = VIntL l) /\ (forall l, unify (GInt32s l) = VIntL l) /\
  (forall u, unify (GTime u) = VInt u) /\ (forall ns, unify (GDuration ns) = VInt (Z.quot ns 1000000000)).
Proof. exact unify_spec. Qed.

(* non-vacuity: the gap layout {a:1, b:3}: the next name gets the free key 2, and a layout filling 1..n gets n+1 *)
Example C11_ex :
  snd (get_or_register [(ss "a", 1); (ss "b", 3)] (ss "c")) = 2 /\
  snd (get_or_register [(ss "a", 2)] (ss "c")) = 1 /\
  snd (get_or_register [(ss "a", 1); (ss "b", 2)] (ss "c")) = 3 /\
  snd (get_or_register [(ss "a", -5); (ss "b", 300)] (ss "c")) = 1 /\
  fget (new_ctx false [(ss "a", 0); (ss "b", 255)] [(ss "b", GUint64 18446744073709551615)]) 255 (ss "b") = Ok (VInt (-1)).
Proof. vm_compute. repeat split. Qed.

Print Assumptions C11_register_injective.
Print Assumptions C11_fetch_correct.
Print Assumptions C11_history.

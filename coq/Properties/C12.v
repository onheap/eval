(* C12 — Event reporting observes evaluation faithfully without changing it.
   Statements; the proofs are instances of the theorems of Proofs/EvalTop.v, TryCorrect.v and DumpStruct.v for the
   event-mode program, stated in EvalTopE.v, TryCorrectE.v, LoopOrderT.v, DumpStructE.v.

   `compileE t` is the program with event nodes (ReportEvent / Debug): every node except the leaf operands of a
   fast operator is preceded by its event node, jump targets and parents are those of the interleaved layout.
   It is compared with the transliterated calAndSetEventNode pass (`eventize (compile t)`) and with Go's own
   event-mode program on every correspondence case (codes 10 and 3). In the model an OP_EXEC event IS the
   observation `OCall name fast args result` made when the operator is applied; a LOOP event is `OLoop`. *)
Require Import Base Tree Flat FlatE Run EvalTop EvalCorrectE EvalTopE TryCorrectE Print DumpStructE LoopOrder LoopOrderT.
From Coq Require Import Sorted.
Open Scope Z_scope.

(* Eval of the event program: the result (value or the very error), the fetches and the OP_EXEC events —
   operator name, fast flag, arguments at call time, result or error — in order, are exactly those of the
   reference semantics, for EVERY tree, fetcher and registered-operator function; the LOOP events are the only
   other observations. *)
Theorem C12_event_program_is_sem : forall fetch custom t,
  dl (eval fetch custom (compileE t)) = sem_obs (sem fetch custom t).
Proof. exact run_compileE_correct. Qed.

(* switching events on changes neither the result nor the operator applications nor the fetches *)
Theorem C12_events_transparent : forall fetch custom t,
  dl (eval fetch custom (compileE t)) = eval fetch custom (compile t).
Proof. exact events_transparent. Qed.

(* the same for TryEval: on the event program it computes `trysem` — value or error, fetches of available variables,
   operator applications (OP_EXEC) in order — LOOP events being the only addition; so the event options never change
   the result of TryEval either *)
Theorem C12_tryeval_event_program_is_trysem : forall fetch custom cached t,
  dl (tryeval fetch custom cached (compileE t)) = sem_obs (trysem fetch custom cached t).
Proof. exact tryrun_compileE_correct. Qed.
Theorem C12_tryeval_events_transparent : forall fetch custom cached t,
  dl (tryeval fetch custom cached (compileE t)) = tryeval fetch custom cached (compile t).
Proof. exact try_events_transparent. Qed.

(* ... nor the decompiled program *)
Theorem C12_dump_unchanged : forall t, dump (compileE t) = dump (compile t).
Proof. exact dump_events_transparent. Qed.

(* LOOP events report strictly increasing positions (the event node in front of the real node at index p reports p;
   every jump of the evaluator goes forward): 0 followed by the reported positions is strictly increasing, for Eval
   and for TryEval, on every tree, fetcher, operator table and availability predicate *)
Theorem C12_loop_positions_increase : forall fetch custom t,
  LocallySorted Z.lt (0 :: loops (fst (eval fetch custom (compileE t)))).
Proof. exact loops_sorted. Qed.
Theorem C12_try_loop_positions_increase : forall fetch custom cached t,
  LocallySorted Z.lt (0 :: loops (fst (tryeval fetch custom cached (compileE t)))).
Proof. exact try_loops_sorted. Qed.

(* without event nodes no LOOP event is ever emitted *)
Theorem C12_plain_no_loops : forall fetch custom t,
  dl (eval fetch custom (compile t)) = eval fetch custom (compile t).
Proof. exact plain_no_loops. Qed.

(* the event program never writes outside the operand stack the engine allocates for it *)
Theorem C12_event_alloc : forall t i nd, getn (compileE t) i = Some nd -> osTop nd < alloc (compileE t).
Proof. exact compileE_alloc. Qed.

(* non-vacuity: a short-circuit landing two levels up across event nodes, an `if`, a fast operator *)
Definition ex_fetch (n : str) (k : Z) : res value :=
  if str_eqb n (ss "a") then Ok (VBool true) else if str_eqb n (ss "b") then Ok (VBool false)
  else if str_eqb n (ss "n") then Ok (VInt 4) else Err (EUser 7).
Definition ex_custom (n : str) (a : list value) : res value := Err (EUser 9).
Definition ex_tree : tree :=
  TOp (ss "and") false
    [TVar (ss "a") 1;
     TOp (ss "or") false [TVar (ss "b") 2; TIf (TVar (ss "a") 1) (TOp (ss "<") true [TVar (ss "n") 3; TConst (VInt 5)]) (TVar (ss "boom") 4)];
     TOp (ss "=") false [TConst (VInt 1); TVar (ss "boom") 4]].
Example C12_ex_layout : compileE ex_tree = eventize (compile ex_tree).
Proof. vm_compute. reflexivity. Qed.
Example C12_ex_loops : length (fst (eval ex_fetch ex_custom (compileE ex_tree))) = 13%nat /\
  fst (dl (eval ex_fetch ex_custom (compileE ex_tree))) =
    [OGet (ss "a") 1; OGet (ss "b") 2; OGet (ss "a") 1; OGet (ss "n") 3;
     OCall (ss "<") true [VInt 4; VInt 5] (Ok (VBool true)); OGet (ss "boom") 4].
Proof. vm_compute. split; reflexivity. Qed.

Print Assumptions C12_event_program_is_sem.
Print Assumptions C12_events_transparent.
Print Assumptions C12_tryeval_events_transparent.
Print Assumptions C12_loop_positions_increase.
Print Assumptions C12_try_loop_positions_increase.

(* C20 — GenerateRandomExpr reports the true value of the expression it generates.
   Statements about `generate`, the model of GenerateRandomExpr as a function of the raw random draws (every seed
   is some stream of draws; tied to the Go function by a scripted rand.Source on every run). Proofs: GenProofs.v, GenEval.v
   (the value), GenTextProofs.v, GenShape.v (the text); the machine-level and read-back-tree clauses are put together here.
   Both evaluation clauses are theorems: three-valued evaluation (TryEval) for every option set, ordinary evaluation
   (Eval, under every optimisation configuration) when no DNE variable can be used; and the TEXT the generator
   returns (model `gtext`, compared with Go's string on every run) is read back by lexer, parser.check and prefix
   parser as the generated tree, in every configuration that registers the given variables, from level 1 on. Limits of
   the statement: (a) "compiles" is proved up to the capacity check (an expression of more than 32767 nodes, reachable
   only at high levels, is rejected by design - C09); (b) at level 0 the generated text is a bare leaf that prefix
   Compile rejects - a recorded finding (known_findings.json). *)
Require Import Base Opcode Tables Ops Tree Opt Flat Run TryFacts Parser Gen GenText GenProofs GenEval GenTextProofs GenShape
  OptTotal EvalDefs EvalTop TryCorrect.
Open Scope Z_scope.

(* for every level, every stream of draws, both result types, every option combination and variable lists whose
   recorded values have the declared type (distinct names): the reported result is the strong-Kleene value of the
   generated expression under the recorded values (DNE variables unavailable); no sub-expression fails; the result
   has the requested type or is DNE *)
Theorem C20_reported_is_kleene : forall c, wf_cfg c -> forall isb level s,
  let r := generate c isb level s in
  kleene (gfetch c) no_custom (gcached c) (fst r) = Ok (snd r) /\
  subs_ok no_custom (gfetch c) (gcached c) (fst r) /\ typed isb (snd r).
Proof. exact generate_kleene. Qed.

(* hence the tree-level meaning of TryEval returns exactly the reported result *)
Theorem C20_reported_is_trysem : forall c, wf_cfg c -> forall isb level s,
  let r := generate c isb level s in snd (trysem (gfetch c) no_custom (gcached c) (fst r)) = Ok (snd r).
Proof. exact generate_trysem. Qed.

(* machine level: TryEval of the compiled generated expression (model of Expr.TryEval on the flat program) returns the
   reported result *)
Theorem C20_reported_is_tryeval : forall c, wf_cfg c -> forall isb level s,
  let r := generate c isb level s in
  snd (tryeval (gfetch c) no_custom (gcached c) (compile (fst r))) = MVal (snd r).
Proof.
  intros c Hc isb level s r. apply tryeval_value.
  unfold r. rewrite (generate_trysem c Hc isb level s). reflexivity.
Qed.

(* ordinary evaluation: when the generator cannot use a DNE variable (EnableTryEval off, or no DNE variable given),
   strict evaluation of the generated expression - every operand of every operator, the taken branch of every `if` -
   succeeds with the reported result, which is of the requested type (never DNE) *)
Theorem C20_reported_is_strict : forall c, wf_cfg c -> g_try c && nonempty (g_dnes c) = false -> forall isb level s,
  let r := generate c isb level s in
  rok (gfetch c) no_custom (fst r) = Some (snd r) /\ typedE isb (snd r).
Proof. exact generate_rok. Qed.
(* hence Eval of the compiled generated expression returns the reported result, under every optimisation
   configuration (any subset of the passes, any cost map) *)
Theorem C20_reported_is_eval : forall c, wf_cfg c -> g_try c && nonempty (g_dnes c) = false -> forall cfg isb level s,
  let r := generate c isb level s in
  snd (eval (gfetch c) no_custom (compile (optimize no_custom cfg (fst r)))) = MVal (snd r).
Proof.
  intros c Hc Hn cfg isb level s r. apply eval_value.
  unfold r. rewrite (generate_sem c Hc Hn cfg isb level s). reflexivity.
Qed.
Theorem C20_reported_is_eval_plain : forall c, wf_cfg c -> g_try c && nonempty (g_dnes c) = false -> forall isb level s,
  let r := generate c isb level s in snd (eval (gfetch c) no_custom (compile (fst r))) = MVal (snd r).
Proof.
  intros c Hc Hn isb level s r. apply eval_value.
  unfold r. rewrite (generate_sem_plain c Hc Hn isb level s). reflexivity.
Qed.

(* in any parser configuration `pc` that registers the given variables (each name an identifier the lexer accepts,
   not a constant), from level 1 on: the returned text goes through lexer, parser.check and the prefix parser and
   yields the generated tree (with that configuration's variable keys) *)
Theorem C20_text_parses : forall c pc, registers c pc -> forall isb level s, (1 <= level)%nat ->
  let t := fst (generate c isb level s) in parse_source pc false (gtext t) = Some (rekey pc t).
Proof. exact generate_text_parses. Qed.

(* and that parsed tree evaluates to the reported result: Eval under every optimisation configuration when no DNE
   variable can be used, TryEval in general *)
Theorem C20_text_eval : forall c pc, wf_cfg c -> g_try c && nonempty (g_dnes c) = false -> forall cfg isb level s,
  let r := generate c isb level s in
  snd (eval (gfetch c) no_custom (compile (optimize no_custom cfg (rekey pc (fst r))))) = MVal (snd r).
Proof.
  intros c pc Hc Hn cfg isb level s r. apply eval_value.
  destruct (generate_rok c Hc Hn isb level s) as [H _]. fold r in H.
  rewrite <- (rok_rekey (gfetch c) no_custom pc (fun n k k' => eq_refl)) in H.
  pose proof (all_configurations_return (gfetch c) no_custom cfg _ _ H) as A. unfold OptValue.val in A. rewrite A. reflexivity.
Qed.
Theorem C20_text_tryeval : forall c pc, wf_cfg c -> forall isb level s,
  let r := generate c isb level s in
  snd (tryeval (gfetch c) no_custom (gcached c) (compile (rekey pc (fst r)))) = MVal (snd r).
Proof.
  intros c pc Hc isb level s r. apply tryeval_value.
  destruct (generate_kleene c Hc isb level s) as (Hk & Hs & _). fold r in Hk, Hs.
  rewrite (trysem_is_kleene _ _ _ _ (subs_ok_rekey (gfetch c) no_custom pc (fun n k k' => eq_refl) (gcached c) (fun n k k' => eq_refl) _ Hs)).
  rewrite (kleene_rekey (gfetch c) no_custom pc (fun n k k' => eq_refl) (gcached c) (fun n k k' => eq_refl)). rewrite Hk. reflexivity.
Qed.

(* the generator's own operator evaluation is the Kleene combination whenever that is defined *)
Theorem C20_exec_is_comb : forall op vals r,
  In op [ss "and"; ss "or"; ss "eq"; ss "not"; ss "+"; ss "-"; ss "*"; ss "/"; ss "%"] ->
  comb no_custom op vals = Ok r -> exec op vals = r.
Proof. exact exec_is_comb. Qed.

(* one variable of each kind satisfies `wf_cfg`; with TryEval on the reported result is not nil, with it off it is a boolean *)
Definition c0 : gencfg := {| g_var := true; g_cond := true; g_try := true;
  g_nums := [(ss "n", VInt 3)]; g_bools := [(ss "b", VBool true)]; g_dnes := [(ss "d", VDNE)] |}.
Example C20_ex_wf : wf_cfg c0.
Proof.
  unfold wf_cfg, known. cbn. repeat split; repeat constructor; cbn; try (eexists; reflexivity); try reflexivity;
    intros H; repeat (destruct H as [H|H]; [discriminate|]); try destruct H.
Qed.
Example C20_ex : snd (generate c0 true 3 [5; 3; 2; 7; 1; 4; 9; 1; 60; 2; 0; 8; 1; 30; 4; 2; 40; 6; 3; 1; 1; 0; 2; 7]) <> VNil.
Proof. vm_compute. discriminate. Qed.

Definition c1 : gencfg := {| g_var := true; g_cond := true; g_try := false;
  g_nums := [(ss "n", VInt 3)]; g_bools := [(ss "b", VBool true)]; g_dnes := [(ss "d", VDNE)] |}.
Example C20_ex_wf1 : wf_cfg c1 /\ g_try c1 && nonempty (g_dnes c1) = false.
Proof. split; [exact C20_ex_wf|reflexivity]. Qed.
Example C20_ex1 : exists b, snd (generate c1 true 3 [5; 3; 2; 7; 1; 4; 9; 1; 60; 2; 0; 8; 1; 30; 4; 2; 40; 6; 3; 1; 1; 0; 2; 7]) = VBool b.
Proof. vm_compute. eexists. reflexivity. Qed.

(* non-vacuity of `registers`: the three variables of c0 registered with keys 1..3 *)
Definition pc0 : pconf := {| p_consts := []; p_vars := [(ss "n", 1); (ss "b", 2); (ss "d", 3)]; p_ops := []; p_undefined := false |}.
Example C20_ex_registers : registers c0 pc0.
Proof.
  intros n Hn. cbn in Hn. destruct Hn as [<-|[<-|[<-|[]]]]; (split; [reflexivity|split; [reflexivity|split; [eexists; reflexivity|]]]);
    DumpText.word_tok.
Qed.
Example C20_ex_text : gtext (fst (generate c0 true 2 [5; 3; 2; 7; 1; 4; 9; 1; 60; 2; 0; 8; 1; 30; 4; 2; 40; 6; 3; 1; 1; 0; 2; 7])) <> [].
Proof. vm_compute. discriminate. Qed.

Print Assumptions C20_reported_is_kleene.
Print Assumptions C20_text_parses.
Print Assumptions C20_text_eval.
Print Assumptions C20_reported_is_eval.
Print Assumptions C20_reported_is_tryeval.
